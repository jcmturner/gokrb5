(* C01 (completeness) — an honestly built AP-REQ is accepted, from the wire bytes through the real crypto model; the
   same request presented again is refused as a replay. *)
From Gokrb5.lib Require Import Bytes JV.
From Gokrb5.model Require Import Keytab Crypto Replay Schema DER DERCodec RFCSchemas GoASN1 APReq APReqBytes.
From Gokrb5.proofs Require Import APReqProofs APReqBytesProofs CryptoRoundTrip APReqHonest.

(* sealed et key usage msg ct := exists conf, length conf = conf_len et /\ wf_bytes conf /\
                                              encrypt_with et key usage conf msg = Ok ct
   key_ok et key := a byte string for the AES profiles, 16 octets for rc4-hmac, nothing for des3 (nor unknown etypes,
                    which seal nothing). *)

(* What is sealed opens: the plaintext, followed (des3 only) by the RFC 3961 zero padding. *)
Theorem C01_sealed_decrypt : forall et key usage msg ct,
  key_ok et key -> wf_bytes msg -> sealed et key usage msg ct ->
  exists pad, decrypt et key usage ct = Ok (msg ++ pad).
Proof. exact sealed_decrypt. Qed.
Print Assumptions C01_sealed_decrypt.

(* The wire is the RFC 4120 DER encoding of an AP-REQ whose ticket the KDC sealed (usage 2) under the key the keytab
   returns for it and whose authenticator the client sealed under the ticket's session key; the RFC 4120 3.2.3
   conditions on times, flags, addresses, names and replay hold: the service accepts, reports the identity sealed in
   the ticket and records the authenticator. *)
Theorem C01_honest_apreq_accepted : forall st kt t rc tk aet ac wire rest et au ept apt0 kv ktype kvno,
  wf_apreq tk aet ac = true -> encode rfc_APReq (inject_apreq tk aet ac) = Some wire -> zlen wire < 2 ^ 31 ->
  wf_enc_ticket et = true -> encode rfc_EncTicketPart (inject_enc_ticket et) = Some ept -> zlen ept < 2 ^ 31 ->
  wf_authenticator au = true -> encode rfc_Authenticator (inject_authenticator au) = Some apt0 -> zlen apt0 < 2 ^ 31 ->
  get_key kt (match st_override st with Some o => o | None => tk_sname tk end)
          (tk_realm tk) (tk_kvno tk) (tk_etype tk) = Ok (kv, ktype, kvno) ->
  key_ok ktype kv -> sealed ktype kv 2 ept (tk_cipher tk) ->
  key_ok (et_keytype et) (et_key et) -> sealed (et_keytype et) (et_key et) (auth_usage (tk_sname tk)) apt0 ac ->
  match et_start et with Some s => us s - t <= st_skew st | None => True end ->
  flag_invalid (et_flags et) = false -> t - us (et_end et) <= st_skew st ->
  (et_caddr et = [] \/ In (st_caddr st) (et_caddr et)) ->
  (st_require_addr st = true -> et_caddr et <> []) ->
  au_cname au = et_cname et -> au_crealm au = et_crealm et ->
  Z.abs (t - (us (au_ctime au) + au_cusec au)) <= st_skew st ->
  ~ In (mkAuth (join_slash (au_cname au)) (us (au_ctime au) + au_cusec au) (eff_sname st tk)) rc ->
  verify_apreq_bytes st kt t rc (wire ++ rest) =
  (Accept (mkIdentity (join_slash (et_cname et)) (et_crealm et) (et_cname et) (et_end et)),
   mkAuth (join_slash (au_cname au)) (us (au_ctime au) + au_cusec au) (eff_sname st tk) :: rc).
Proof.
  intros. apply (honest_apreq_accepted st kt tk aet ac wire rest et au ept apt0 kv ktype kvno); try assumption.
  repeat split; assumption.
Qed.
Print Assumptions C01_honest_apreq_accepted.

(* Presented again at any time t' that still satisfies the time conditions, against the cache the first presentation
   left: KRB_AP_ERR_REPEAT (34), cache kept. *)
Theorem C01_honest_replay_rejected : forall st kt t t' rc tk aet ac wire rest et au ept apt0 kv ktype kvno,
  wf_apreq tk aet ac = true -> encode rfc_APReq (inject_apreq tk aet ac) = Some wire -> zlen wire < 2 ^ 31 ->
  wf_enc_ticket et = true -> encode rfc_EncTicketPart (inject_enc_ticket et) = Some ept -> zlen ept < 2 ^ 31 ->
  wf_authenticator au = true -> encode rfc_Authenticator (inject_authenticator au) = Some apt0 -> zlen apt0 < 2 ^ 31 ->
  get_key kt (match st_override st with Some o => o | None => tk_sname tk end)
          (tk_realm tk) (tk_kvno tk) (tk_etype tk) = Ok (kv, ktype, kvno) ->
  key_ok ktype kv -> sealed ktype kv 2 ept (tk_cipher tk) ->
  key_ok (et_keytype et) (et_key et) -> sealed (et_keytype et) (et_key et) (auth_usage (tk_sname tk)) apt0 ac ->
  match et_start et with Some s => us s - t <= st_skew st | None => True end ->
  flag_invalid (et_flags et) = false -> t - us (et_end et) <= st_skew st ->
  (et_caddr et = [] \/ In (st_caddr st) (et_caddr et)) ->
  (st_require_addr st = true -> et_caddr et <> []) ->
  au_cname au = et_cname et -> au_crealm au = et_crealm et ->
  Z.abs (t - (us (au_ctime au) + au_cusec au)) <= st_skew st ->
  ~ In (mkAuth (join_slash (au_cname au)) (us (au_ctime au) + au_cusec au) (eff_sname st tk)) rc ->
  match et_start et with Some s => us s - t' <= st_skew st | None => True end ->
  t' - us (et_end et) <= st_skew st ->
  Z.abs (t' - (us (au_ctime au) + au_cusec au)) <= st_skew st ->
  let a := mkAuth (join_slash (au_cname au)) (us (au_ctime au) + au_cusec au) (eff_sname st tk) in
  let first := verify_apreq_bytes st kt t rc (wire ++ rest) in
  snd first = a :: rc /\
  verify_apreq_bytes st kt t' (snd first) (wire ++ rest) = (Reject 34, a :: rc).
Proof.
  intros. apply (honest_apreq_then_replay_rejected st kt tk aet ac wire rest et au ept apt0 kv ktype kvno);
    try assumption; repeat split; assumption.
Qed.
Print Assumptions C01_honest_replay_rejected.
