(* C02, second layer — whole histories: no authenticator is ever accepted twice. *)
From Gokrb5.lib Require Import Bytes JV.
From Gokrb5.model Require Import Replay.
From Gokrb5.proofs Require Import ReplayProofs.

(* Over every history of presentations, clean-ups and non-negative clock advances, from every cache state,
   the authenticators accepted are pairwise distinct: an entry is dropped by clean-up only when it has aged
   out of the skew window, and from then on (monotone clock) the skew check itself rejects it. *)
Theorem C02_no_authenticator_accepted_twice : forall d ops s,
  nonneg_advances ops -> NoDup (accepted d s ops).
Proof. exact accepted_NoDup. Qed.
Print Assumptions C02_no_authenticator_accepted_twice.

(* `accepted` is exactly what the verdict stream reports *)
Theorem C02_accepted_counts_verdicts : forall d ops s,
  length (accepted d s ops) = count_accept (snd (run d s ops)).
Proof. exact accepted_length. Qed.
Print Assumptions C02_accepted_counts_verdicts.

(* what the cache already remembers is never accepted again, whatever happens in between *)
Theorem C02_remembered_never_accepted : forall d s a ops,
  In a (cache s) -> nonneg_advances ops -> ~ In a (accepted d s ops).
Proof. exact remembered_never_accepted. Qed.
Print Assumptions C02_remembered_never_accepted.

(* "whenever cache clean-up runs": a clean-up changes no verdict on an authenticator that passes the skew check *)
Theorem C02_cleanup_invisible_to_fresh : forall d s a,
  acceptable d (now s) a = true ->
  snd (step d (fst (step d s Clear)) (Present a)) = snd (step d s (Present a)).
Proof. exact clear_preserves_fresh. Qed.
Print Assumptions C02_cleanup_invisible_to_fresh.

(* non-vacuity: a history with a clean-up between two presentations, a clock advance past the window and a
   third presentation: accepted once, then replay, then skew *)
Example C02b_history :
  let a := mkAuth [1] 100 [[2]] in
  snd (run 10 (mkState 100 []) [Present a; Clear; Present a; Advance 11; Clear; Present a])
  = [VAccept; VNone; VReplay; VNone; VNone; VSkew].
Proof. vm_compute. reflexivity. Qed.
