(* PAC_CLIENT_INFO: what the model (and the code) reports is what the buffer holds at fixed positions. *)
From Gokrb5.lib Require Import Bytes.
From Gokrb5.model Require Import PAC.
From Gokrb5.proofs Require Import PACAccept.

Definition u16_at (r : bytes) (i : nat) : Z := nth (2 * i) r 0 + 256 * nth (2 * i + 1) r 0.

Lemma read_u16s_spec r : forall cnt us, read_u16s r cnt = Ok us ->
  us = map (u16_at r) (seq 0 (Z.to_nat cnt)) /\ (2 * Z.to_nat cnt <= length r)%nat.
Proof.
  induction r as [|a|a b r IH] using list_ind2; intros cnt us; cbn [read_u16s];
    destruct (Z.leb_spec cnt 0) as [C|C]; try discriminate.
  1-3: intros E; injection E as <-; replace (Z.to_nat cnt) with 0%nat by lia; split; [reflexivity|cbn; lia].
  destruct (read_u16s r (cnt - 1)) as [rest| |] eqn:R; cbn [bind]; try discriminate.
  intros E; injection E as <-. destruct (IH _ _ R) as [-> Lr].
  replace (Z.to_nat cnt) with (S (Z.to_nat (cnt - 1))) by lia.
  split; [|cbn [length]; lia].
  cbn [seq map]. f_equal. rewrite <- seq_shift, map_map. apply map_ext. intros i.
  unfold u16_at. replace (2 * S i)%nat with (S (S (2 * i))) by lia.
  replace (2 * S i + 1)%nat with (S (S (2 * i + 1))) by lia. reflexivity.
Qed.

(* ClientId (FILETIME, low then high double word), NameLength and the UTF-16LE name are read from fixed
   positions; the reported name is the UTF-8 form of exactly NameLength/2 16-bit units *)
Theorem client_info_layout p ci : client_info_unmarshal p = Ok ci ->
  10 <= zlen p /\
  ci_lo ci = le_val (firstn 4 p) /\ ci_hi ci = le_val (firstn 4 (skipn 4 p)) /\
  ci_namelen ci = le_val (firstn 2 (skipn 8 p)) /\
  (10 + 2 * Z.to_nat (ci_namelen ci / 2) <= length p)%nat /\
  ci_name ci = flat_map utf8_of_u16 (map (u16_at (skipn 10 p)) (seq 0 (Z.to_nat (ci_namelen ci / 2)))).
Proof.
  unfold client_info_unmarshal.
  destruct (read_le 4 p) as [[lo r1]| |] eqn:E1; cbn [bind]; try discriminate.
  destruct (read_le 4 r1) as [[hi r2]| |] eqn:E2; cbn [bind]; try discriminate.
  destruct (read_le 2 r2) as [[nl r3]| |] eqn:E3; cbn [bind]; try discriminate.
  destruct (read_u16s r3 (nl / 2)) as [us| |] eqn:E4; cbn [bind]; try discriminate.
  intros E; injection E as <-. cbn [ci_lo ci_hi ci_namelen ci_name].
  apply read_le_ok in E1. destruct E1 as (L1 & -> & ->).
  apply read_le_ok in E2. destruct E2 as (L2 & -> & ->). rewrite skipn_length in L2.
  apply read_le_ok in E3. destruct E3 as (L3 & -> & ->). rewrite !skipn_length in L3.
  rewrite !skipn_add in *. change (4 + 4)%nat with 8%nat in *. change (8 + 2)%nat with 10%nat in *.
  apply read_u16s_spec in E4. destruct E4 as [-> L4]. rewrite skipn_length in L4.
  repeat split; try reflexivity; unfold zlen; lia.
Qed.
