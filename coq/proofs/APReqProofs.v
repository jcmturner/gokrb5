(* The service accepts an AP-REQ exactly when RFC 4120 3.2.3 says it is valid, and the identity it reports is
   the one sealed in the ticket. *)
From Gokrb5.lib Require Import Bytes JV.
From Gokrb5.model Require Import Keytab Crypto Replay APReq.
From Gokrb5.proofs Require Import ReplayProofs CryptoBasic.

Lemma map_opt_map {A B} (f : A -> option B) (g : B -> A) :
  (forall b, f (g b) = Some b) -> forall l, map_opt f (map g l) = Some l.
Proof. intros H l. induction l as [|b l IH]; [reflexivity|]. cbn [map map_opt]. rewrite H, IH. reflexivity. Qed.

Lemma addr_eqb_eq a b : addr_eqb a b = true <-> a = b.
Proof.
  unfold addr_eqb. rewrite andb_true_iff, Z.eqb_eq, beq_bytes_eq. destruct a, b; cbn.
  split; [intros [-> ->]; reflexivity|intros H; inversion H; auto].
Qed.

Lemma existsb_addr a l : existsb (addr_eqb a) l = true <-> In a l.
Proof. apply (existsb_eqb_In addr_eqb addr_eqb_eq). Qed.

Lemma not_yet_false d t (o : option Z) :
  match o with Some s => d <? us s - t | None => false end = false <->
  match o with Some s => us s - t <= d | None => True end.
Proof. destruct o as [s|]; [apply Z.ltb_ge | tauto]. Qed.

Lemma unless_empty_false {A} (l : list A) (b : bool) :
  negb (length l =? 0)%nat && negb b = false <-> l = [] \/ b = true.
Proof. destruct l, b; cbn; intuition discriminate. Qed.

Lemma require_nonempty_false {A} (r : bool) (l : list A) :
  r && (length l =? 0)%nat = false <-> (r = true -> l <> []).
Proof. destruct r, l; cbn; intuition (discriminate || congruence). Qed.

Section Spec.
  Variable dec_ticket : bytes -> option enc_ticket.
  Variable dec_auth : bytes -> option authenticator.

  (* RFC 4120 3.2.3, written as a specification (no control flow).  The authenticator's etype aet is carried by every
     statement and read by none: APReq.DecryptAuthenticator decrypts by the session key's type. *)
  Definition rfc_valid (st : settings) (kt : list entry) (t : Z) (rc : list auth)
             (tk : ticket) (au_cipher : bytes) (id : identity) (rc' : list auth) : Prop :=
    exists kv ktype kvno pt et apt au,
      let d := st_skew st in
      let ct := us (au_ctime au) + au_cusec au in
      let a := mkAuth (join_slash (au_cname au)) ct (eff_sname st tk) in
      (* the ticket decrypts under the keytab key selected by realm, kvno and etype for the service (or override) principal *)
      get_key kt (match st_override st with Some o => o | None => tk_sname tk end)
              (tk_realm tk) (tk_kvno tk) (tk_etype tk) = Ok (kv, ktype, kvno) /\
      decrypt ktype kv 2 (tk_cipher tk) = Ok pt /\ dec_ticket pt = Some et /\
      (* now lies inside the ticket's validity extended by the skew; the ticket is not flagged invalid *)
      match et_start et with Some s => us s - t <= d | None => True end /\
      flag_invalid (et_flags et) = false /\ t - us (et_end et) <= d /\
      (* address requirements *)
      (et_caddr et = [] \/ In (st_caddr st) (et_caddr et)) /\
      (st_require_addr st = true -> et_caddr et <> []) /\
      (* the authenticator decrypts under the ticket's session key, names the same client and realm, is fresh *)
      decrypt (et_keytype et) (et_key et) (auth_usage (tk_sname tk)) au_cipher = Ok apt /\
      dec_auth apt = Some au /\
      au_cname au = et_cname et /\ au_crealm au = et_crealm et /\
      Z.abs (t - ct) <= d /\
      (* not a replay *)
      ~ In a rc /\
      (* what the application is told is what the KDC sealed in the ticket *)
      id = mkIdentity (join_slash (et_cname et)) (et_crealm et) (et_cname et) (et_end et) /\
      rc' = a :: rc.

  Theorem apreq_accept_iff st kt t rc tk aet ac id rc' :
    verify_apreq dec_ticket dec_auth st kt t rc tk aet ac = (Accept id, rc') <->
    rfc_valid st kt t rc tk ac id rc'.
  Proof.
    unfold verify_apreq, rfc_valid. split.
    - destruct (get_key kt _ (tk_realm tk) (tk_kvno tk) (tk_etype tk)) as [[[kv ktype] kvno]| |] eqn:EK; try discriminate.
      destruct (decrypt ktype kv 2 (tk_cipher tk)) as [pt| |] eqn:ED; try discriminate.
      destruct (dec_ticket pt) as [et|] eqn:ET; try discriminate.
      destruct (_ || flag_invalid (et_flags et)) eqn:ENY; try discriminate.
      destruct (st_skew st <? t - us (et_end et)) eqn:HE; try discriminate.
      destruct (negb (length (et_caddr et) =? 0)%nat && negb (existsb (addr_eqb (st_caddr st)) (et_caddr et))) eqn:EA; try discriminate.
      destruct (decrypt (et_keytype et) (et_key et) (auth_usage (tk_sname tk)) ac) as [apt| |] eqn:EDA; try discriminate.
      destruct (dec_auth apt) as [au|] eqn:EAU; try discriminate.
      destruct (names_eqb (au_cname au) (et_cname et)) eqn:ECN; cbn [negb]; try discriminate.
      destruct (beq_bytes (au_crealm au) (et_crealm et)) eqn:ECR; cbn [negb]; try discriminate.
      destruct (st_skew st <? Z.abs (t - (us (au_ctime au) + au_cusec au))) eqn:HS; try discriminate.
      destruct (st_require_addr st && (length (et_caddr et) =? 0)%nat) eqn:ERA; try discriminate.
      destruct (existsb (auth_eqb _) rc) eqn:ERC; try discriminate.
      intros H. injection H as <- <-.
      apply orb_false_iff in ENY. destruct ENY as [ENY EFI]. apply not_yet_false in ENY.
      apply Z.ltb_ge in HE, HS. apply unless_empty_false in EA. rewrite existsb_addr in EA.
      pose proof (proj1 (require_nonempty_false _ _) ERA) as HR. apply names_eqb_eq in ECN. apply beq_bytes_eq in ECR.
      exists kv, ktype, kvno, pt, et, apt, au. cbv zeta. repeat split; auto.
      + intros Hin. apply existsb_auth in Hin. congruence.
      + rewrite ECN, ECR. reflexivity.
    - intros (kv & ktype & kvno & pt & et & apt & au & H). cbv zeta in H.
      destruct H as (EK & ED & ET & HS & EFI & HE & HA & HR & EDA & EAU & ECN & ECR & HSK & HRC & -> & ->).
      rewrite <- existsb_addr in HA. rewrite <- existsb_auth in HRC. apply not_true_is_false in HRC.
      rewrite EK, ED, ET, EFI, (proj2 (not_yet_false _ _ _) HS), (proj2 (Z.ltb_ge _ _) HE),
        (proj2 (unless_empty_false _ _) HA), EDA, EAU, (proj2 (names_eqb_eq _ _) ECN), (proj2 (beq_bytes_eq _ _) ECR),
        (proj2 (Z.ltb_ge _ _) HSK), (proj2 (require_nonempty_false _ _) HR), HRC, ECN, ECR.
      reflexivity.
  Qed.

  (* On success nothing reported to the application comes from the authenticator or any unauthenticated part:
     name, realm and expiry are projections of the decrypted EncTicketPart. *)
  Corollary apreq_identity_from_ticket st kt t rc tk aet ac id rc' :
    verify_apreq dec_ticket dec_auth st kt t rc tk aet ac = (Accept id, rc') ->
    exists kv ktype kvno pt et,
      get_key kt (match st_override st with Some o => o | None => tk_sname tk end)
              (tk_realm tk) (tk_kvno tk) (tk_etype tk) = Ok (kv, ktype, kvno) /\
      decrypt ktype kv 2 (tk_cipher tk) = Ok pt /\ dec_ticket pt = Some et /\
      id_username id = join_slash (et_cname et) /\ id_domain id = et_crealm et /\
      id_cname id = et_cname et /\ id_valid_until id = et_end et.
  Proof.
    intros H. apply apreq_accept_iff in H.
    destruct H as (kv & ktype & kvno & pt & et & apt & au & H). cbv zeta in H.
    destruct H as (EK & ED & ET & _ & _ & _ & _ & _ & _ & _ & _ & _ & _ & _ & -> & _).
    exists kv, ktype, kvno, pt, et. repeat split; auto.
  Qed.

  (* the replay cache is consulted by the last test only *)
  Lemma verify_apreq_rc st kt t rc tk aet ac :
    verify_apreq dec_ticket dec_auth st kt t rc tk aet ac =
    match verify_apreq dec_ticket dec_auth st kt t [] tk aet ac with
    | (Accept id, [a]) => if existsb (auth_eqb a) rc then (Reject 34, rc) else (Accept id, a :: rc)
    | (o, _) => (o, rc)
    end.
  Proof.
    unfold verify_apreq.
    repeat match goal with |- context [match ?x with _ => _ end] => destruct x; try reflexivity end.
  Qed.

  (* A rejected request leaves the replay cache untouched. *)
  Theorem apreq_reject_keeps_cache st kt t rc tk aet ac o rc' :
    verify_apreq dec_ticket dec_auth st kt t rc tk aet ac = (o, rc') ->
    (forall id, o <> Accept id) -> rc' = rc.
  Proof.
    rewrite verify_apreq_rc. intros H Hn.
    destruct (verify_apreq dec_ticket dec_auth st kt t [] tk aet ac) as [[id| |] [|a [|b l]]];
      try destruct (existsb (auth_eqb a) rc); injection H as <- <-; try reflexivity.
    all: exfalso; eapply Hn; reflexivity.
  Qed.

  Lemma apreq_replay_rejected st kt t rc tk aet ac id a :
    rfc_valid st kt t [] tk ac id [a] -> In a rc ->
    verify_apreq dec_ticket dec_auth st kt t rc tk aet ac = (Reject 34, rc).
  Proof.
    intros H Hin. apply (apreq_accept_iff st kt t [] tk aet ac) in H. apply existsb_auth in Hin.
    rewrite verify_apreq_rc, H, Hin. reflexivity.
  Qed.

  (* The model never panics when decryption does not (C06 proves decrypt never panics, keytab look-up never does). *)
  Theorem apreq_total st kt t rc tk aet ac :
    fst (verify_apreq dec_ticket dec_auth st kt t rc tk aet ac) <> Crash.
  Proof.
    unfold verify_apreq.
    destruct (get_key kt _ _ _ _) as [[[kv ktype] kvno]|c|s] eqn:EK.
    - pose proof (CryptoBasic.decrypt_never_panics ktype kv 2 (tk_cipher tk)) as P1.
      destruct (decrypt ktype kv 2 (tk_cipher tk)) as [pt|e1|s1].
      + destruct (dec_ticket pt) as [et|]; [|cbn; discriminate].
        destruct (_ || _); [cbn; discriminate|].
        destruct (_ <? _); [cbn; discriminate|].
        destruct (_ && _); [cbn; discriminate|].
        pose proof (CryptoBasic.decrypt_never_panics (et_keytype et) (et_key et) (auth_usage (tk_sname tk)) ac) as P2.
        destruct (decrypt (et_keytype et) (et_key et) (auth_usage (tk_sname tk)) ac) as [apt|e2|s2].
        * destruct (dec_auth apt) as [au|]; [|cbn; discriminate].
          repeat match goal with |- context [if ?x then _ else _] => destruct x; try (cbn; discriminate) end.
        * cbn; discriminate.
        * cbn in P2; discriminate.
      + cbn; discriminate.
      + cbn in P1; discriminate.
    - cbn; discriminate.
    - exfalso. unfold get_key in EK. destruct (get_key_loop _ _ _ _ _ _); [destruct (_ <? _)%nat|]; discriminate.
  Qed.
End Spec.

Lemma verify_apreq_ext dt dt' da da' st kt t rc tk aet ac :
  (forall kv ktype kvno pt,
     get_key kt (eff_sname st tk)
             (tk_realm tk) (tk_kvno tk) (tk_etype tk) = Ok (kv, ktype, kvno) ->
     decrypt ktype kv 2 (tk_cipher tk) = Ok pt -> dt pt = dt' pt) ->
  (forall pt et apt, dt' pt = Some et ->
     decrypt (et_keytype et) (et_key et) (auth_usage (tk_sname tk)) ac = Ok apt -> da apt = da' apt) ->
  verify_apreq dt da st kt t rc tk aet ac = verify_apreq dt' da' st kt t rc tk aet ac.
Proof.
  intros Ht Ha. unfold verify_apreq.
  destruct (get_key kt _ (tk_realm tk) (tk_kvno tk) (tk_etype tk)) as [[[kv ktype] kvno]| |] eqn:Ek; try reflexivity.
  destruct (decrypt ktype kv 2 (tk_cipher tk)) as [pt| |] eqn:Ed; try reflexivity.
  rewrite (Ht kv ktype kvno pt eq_refl Ed). destruct (dt' pt) as [et|] eqn:Et; [|reflexivity].
  destruct (decrypt (et_keytype et) (et_key et) (auth_usage (tk_sname tk)) ac) as [apt| |] eqn:Ea; try reflexivity.
  rewrite (Ha pt et apt Et Ea). reflexivity.
Qed.
