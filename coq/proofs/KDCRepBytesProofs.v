(* C09 in bytes mode (model/KDCRepBytes.v).  (a) On the DER encoding of a well-formed KDC-REP value (rfc_ASRep / rfc_TGSRep of
   C13) whose encrypted part decrypts to the encoding of the sealed fields er, the verdict from the bytes is that of the
   sealed-content model (KDCRep.v with the decoder "fun _ => Some er", what the C09 stream runs).  (b) The unsealed fields that
   matter are, AS: cname, crealm, enc-part etype / kvno / cipher and the padata hints; TGS: cname, the ticket's realm
   and the enc-part cipher (that each does matter: KDCRepBytesExamples.v).  (c) Parse failure never accepts; the encoding
   of any message under another APPLICATION tag is rejected. *)
From Coq Require Import ZifyBool.
From Gokrb5.lib Require Import Bytes JV.
From Gokrb5.model Require Import Keytab Crypto PAData Replay APReq KDCRep Schema DER DERCodec RFCSchemas KDCRepBytes.
From Gokrb5.proofs Require Import DERBasic DERProofs ReplayProofs APReqProofs KDCRepProofs KDCRepBytesDec.

(* the fields of EncKDCRepPart that enc_rep does not carry *)
Record enc_extra := mkExtra {
  x_key : value; x_lastreq : value; x_keyexp : option value; x_endtime : value; x_renew : option value;
  x_sname_type : Z; x_epa : option value }.

Definition inject_addr (a : Z * bytes) : value := VSeq [Some (VInt (fst a)); Some (VBytes (snd a))].

Definition inject_enc_rep (x : enc_extra) (er : enc_rep) : value :=
  VSeq [Some (x_key x); Some (x_lastreq x); Some (VInt (er_nonce er)); x_keyexp x;
        Some (VBits 0 (er_flags er)); Some (VTime (er_authtime er)); option_map VTime (er_start er);
        Some (x_endtime x); x_renew x; Some (VBytes (er_srealm er));
        Some (VSeq [Some (VInt (x_sname_type x)); Some (VList (map VBytes (er_sname er)))]);
        (match er_caddr er with [] => None | l => Some (VList (map inject_addr l)) end);
        x_epa x].

(* well-formedness of the injected value, as a computable predicate: schema (strings and keys are octets, times
   are in 0001..9999, flags are whole octets), Go ranges (nonce fits int64, ...), size below 2^31 *)
Definition wf_enc_inj (n : Z) (x : enc_extra) (er : enc_rep) : bool :=
  let v := inject_enc_rep x er in
  wf_val rfc_EncKDCRepPart v && gowf g_EncKDCRepPart v && (zlen (enc (TApp n rfc_EncKDCRepPart) v) <? 2 ^ 31).

Lemma wf_enc_inj_inv n x er : wf_enc_inj n x er = true ->
  wf_val rfc_EncKDCRepPart (inject_enc_rep x er) = true /\ gowf g_EncKDCRepPart (inject_enc_rep x er) = true /\
  zlen (enc (TApp n rfc_EncKDCRepPart) (inject_enc_rep x er)) < 2 ^ 31.
Proof. unfold wf_enc_inj. rewrite !andb_true_iff, Z.ltb_lt. tauto. Qed.

Lemma map_opt_v_bytes l : map_opt v_bytes (map VBytes l) = Some l.
Proof. apply map_opt_map. reflexivity. Qed.

Lemma map_opt_v_addr l : map_opt v_addr (map inject_addr l) = Some l.
Proof. apply map_opt_map. intros [t a]. reflexivity. Qed.

Lemma project_inject x er : project_enc (inject_enc_rep x er) = Some er.
Proof.
  destruct er as [nonce sn srealm ca auth st fl]. unfold inject_enc_rep, project_enc.
  cbn [er_nonce er_sname er_srealm er_caddr er_authtime er_start er_flags].
  assert (Hn : v_names (Some (VSeq [Some (VInt (x_sname_type x)); Some (VList (map VBytes sn))])) = Some sn).
  { cbn [v_names]. apply map_opt_v_bytes. }
  assert (Ha : v_addrs (match ca with [] => None | a :: l => Some (VList (map inject_addr (a :: l))) end) = Some ca).
  { destruct ca as [|a ca]; [reflexivity|]. unfold v_addrs. apply map_opt_v_addr. }
  assert (Ht : v_opt_time (option_map VTime st) = Some st) by (destruct st; reflexivity).
  rewrite Hn, Ha, Ht. reflexivity.
Qed.

Lemma enc_nonempty t v : wf_val t v = true -> enc t v <> [].
Proof. intros H. destruct (enc_head t v H) as (x & r & E & _). rewrite E. discriminate. Qed.

(* the decoder of the decrypted part reads back what was sealed: under APPLICATION 25 or 26, and whatever octets
   follow the value (the zero padding of des3-cbc, for instance) *)
Theorem dec_enc_der_inject n x er b pad :
  n = 25 \/ n = 26 -> wf_enc_inj n x er = true ->
  encode (TApp n rfc_EncKDCRepPart) (inject_enc_rep x er) = Some b ->
  dec_enc_der (b ++ pad) = Some er.
Proof.
  intros Hn Hwf He. apply encode_some in He. destruct He as [_ ->].
  destruct (wf_enc_inj_inv _ _ _ Hwf) as (Hw & Hg & Hs).
  rewrite <- erase_EncKDCRepPart in *. unfold dec_enc_der. destruct Hn as [-> | ->].
  - rewrite go_unmarshal_app_encode; auto; [apply project_inject | lia].
  - assert (E25 : go_unmarshal_app 25 g_EncKDCRepPart
                    (enc (TApp 26 (erase g_EncKDCRepPart)) (inject_enc_rep x er) ++ pad) = None).
    { cbn [enc]. apply go_unmarshal_app_other_tag; try lia; try reflexivity.
      - apply enc_nonempty, Hw.
      - cbn [enc] in Hs. pose proof (zlen_tlv (ident 1 true 26) (enc (erase g_EncKDCRepPart) (inject_enc_rep x er))). lia. }
    rewrite E25. rewrite go_unmarshal_app_encode; auto; [apply project_inject | lia].
Qed.

Definition wf_rep_val (app : Z) (v : value) : bool :=
  wf_val rfc_KDCRep v && gowf g_KDCRep v
  && (match v_msg_type v with Some mt => mt =? app | None => false end)
  && (zlen (enc (TApp app rfc_KDCRep) v) <? 2 ^ 31).

Lemma wf_rep_val_inv app v : wf_rep_val app v = true ->
  wf_val rfc_KDCRep v = true /\ gowf g_KDCRep v = true /\ v_msg_type v = Some app /\
  zlen (enc (TApp app rfc_KDCRep) v) < 2 ^ 31.
Proof.
  unfold wf_rep_val. rewrite !andb_true_iff, Z.ltb_lt. intros (((Hw & Hg) & Hm) & Hs).
  destruct (v_msg_type v) as [mt|]; [|discriminate]. apply Z.eqb_eq in Hm. subst mt. auto.
Qed.

Theorem parse_kdc_rep_encode app v w trailing :
  0 <= app < 31 -> wf_rep_val app v = true -> encode (TApp app rfc_KDCRep) v = Some w ->
  parse_kdc_rep app (w ++ trailing) = project_rep v.
Proof.
  intros Ha Hwf He. apply encode_some in He. destruct He as [_ ->].
  destruct (wf_rep_val_inv _ _ Hwf) as (Hw & Hg & Hm & Hs).
  rewrite <- erase_KDCRep in *. unfold parse_kdc_rep.
  rewrite go_unmarshal_app_encode, Hm, Z.eqb_refl; auto.
Qed.

(* every well-formed reply value has a cleartext projection *)
Lemma wf_seq_inv fs v : wf_val (TSeq fs) v = true -> exists vs, v = VSeq vs /\ wf_fields wf_val fs vs = true.
Proof. destruct v; try discriminate. eauto. Qed.

Lemma wf_fields_req_inv n t fs vs : wf_fields wf_val (req n t :: fs) vs = true ->
  exists x vs', vs = Some x :: vs' /\ wf_val t x = true /\ wf_fields wf_val fs vs' = true.
Proof.
  destruct vs as [|[x|] vs']; try discriminate. unfold req. rewrite wf_fields_cons, andb_true_iff. eauto.
Qed.

Lemma wf_fields_opt_inv n t fs vs : wf_fields wf_val (opt n t :: fs) vs = true ->
  exists o vs', vs = o :: vs' /\ match o with Some x => wf_val t x = true | None => True end /\
                wf_fields wf_val fs vs' = true.
Proof.
  destruct vs as [|o vs']; [discriminate|]. unfold opt. rewrite wf_fields_cons, andb_true_iff.
  intros [Ho H]. exists o, vs'. destruct o; auto.
Qed.

Lemma wf_fields_nil_inv vs : wf_fields wf_val [] vs = true -> vs = [].
Proof. destruct vs; [reflexivity | discriminate]. Qed.

Lemma wf_int_inv v : wf_val TInt v = true -> exists z, v = VInt z.
Proof. destruct v; try discriminate. eauto. Qed.

Lemma wf_genstr_inv v : wf_val TGenStr v = true -> exists b, v = VBytes b.
Proof. destruct v; try discriminate. eauto. Qed.

Lemma wf_octets_inv v : wf_val TOctets v = true -> exists b, v = VBytes b.
Proof. destruct v; try discriminate. eauto. Qed.

Lemma wf_seqof_inv t v : wf_val (TSeqOf t) v = true -> exists l, v = VList l /\ forallb (wf_val t) l = true.
Proof. destruct v; try discriminate. eauto. Qed.

Lemma map_opt_total {A B} (f : A -> option B) (ok : A -> bool) :
  (forall a, ok a = true -> exists b, f a = Some b) ->
  forall l, forallb ok l = true -> exists bs, map_opt f l = Some bs.
Proof.
  intros Hf l. induction l as [|a l IH]; intros H; [eexists; reflexivity|]. cbn [forallb] in H.
  apply andb_true_iff in H. destruct H as [Ha Hl]. destruct (Hf a Ha) as (b & Eb). destruct (IH Hl) as (bs & E).
  cbn [map_opt]. rewrite Eb, E. eexists; reflexivity.
Qed.

Lemma principal_total v : wf_val rfc_PrincipalName v = true -> exists ns, v_names (Some v) = Some ns.
Proof.
  intros H. apply wf_seq_inv in H as (vs & -> & H).
  apply wf_fields_req_inv in H as (t & vs1 & -> & Ht & H). apply wf_fields_req_inv in H as (l & vs2 & -> & Hl & H).
  apply wf_fields_nil_inv in H as ->. apply wf_int_inv in Ht as (z & ->). apply wf_seqof_inv in Hl as (ns & -> & Hl).
  cbn [v_names]. revert Hl. apply map_opt_total. intros a Ha. apply wf_genstr_inv in Ha as (b & ->). eexists; reflexivity.
Qed.

Lemma hint_total v : wf_val rfc_PAData v = true -> exists h, v_hint v = Some h.
Proof.
  intros H. apply wf_seq_inv in H as (vs & -> & H).
  apply wf_fields_req_inv in H as (t & vs1 & -> & Ht & H). apply wf_fields_req_inv in H as (d & vs2 & -> & Hd & H).
  apply wf_fields_nil_inv in H as ->. apply wf_int_inv in Ht as (z & ->). apply wf_octets_inv in Hd as (b & ->).
  eexists; reflexivity.
Qed.

Lemma tkt_realm_total v : wf_val rfc_Ticket v = true -> exists r, v_tkt_realm (Some v) = Some r.
Proof.
  intros H. apply wf_seq_inv in H as (vs & -> & H).
  apply wf_fields_req_inv in H as (tv & vs1 & -> & Htv & H). apply wf_fields_req_inv in H as (r & vs2 & -> & Hr & H).
  apply wf_fields_req_inv in H as (sn & vs3 & -> & _ & H). apply wf_fields_req_inv in H as (ep & vs4 & -> & _ & H).
  apply wf_fields_nil_inv in H as ->. apply wf_int_inv in Htv as (z & ->). apply wf_genstr_inv in Hr as (b & ->).
  eexists; reflexivity.
Qed.

Lemma encdata_total v : wf_val rfc_EncryptedData v = true -> exists x, v_encdata (Some v) = Some x.
Proof.
  intros H. apply wf_seq_inv in H as (vs & -> & H).
  apply wf_fields_req_inv in H as (et & vs1 & -> & Het & H). apply wf_fields_opt_inv in H as (kv & vs2 & -> & Hkv & H).
  apply wf_fields_req_inv in H as (c & vs3 & -> & Hc & H). apply wf_fields_nil_inv in H as ->.
  apply wf_int_inv in Het as (z & ->). apply wf_octets_inv in Hc as (b & ->).
  destruct kv as [k|]; [apply wf_int_inv in Hkv as (z' & ->)|]; eexists; reflexivity.
Qed.

Theorem project_rep_total v : wf_val rfc_KDCRep v = true -> exists rp, project_rep v = Some rp.
Proof.
  intros H. apply wf_seq_inv in H as (vs & -> & H).
  apply wf_fields_req_inv in H as (p & vs1 & -> & Hp & H). apply wf_fields_req_inv in H as (mt & vs2 & -> & Hmt & H).
  apply wf_fields_opt_inv in H as (pad & vs3 & -> & Hpad & H). apply wf_fields_req_inv in H as (cr & vs4 & -> & Hcr & H).
  apply wf_fields_req_inv in H as (cn & vs5 & -> & Hcn & H). apply wf_fields_req_inv in H as (tk & vs6 & -> & Htk & H).
  apply wf_fields_req_inv in H as (ep & vs7 & -> & Hep & H). apply wf_fields_nil_inv in H as ->.
  apply wf_int_inv in Hp as (z & ->). apply wf_int_inv in Hmt as (z' & ->). apply wf_genstr_inv in Hcr as (b & ->).
  destruct (principal_total cn Hcn) as (ns & Ecn). destruct (tkt_realm_total tk Htk) as (tr & Etr).
  destruct (encdata_total ep Hep) as ([[et k] ci] & Eed).
  assert (Hh : exists hs, v_hints pad = Some hs).
  { destruct pad as [pd|]; [|eexists; reflexivity]. apply wf_seqof_inv in Hpad as (l & -> & Hl).
    revert Hl. apply map_opt_total, hint_total. }
  destruct Hh as (hs & Eh). unfold project_rep. cbn [v_int v_obytes]. rewrite Eh, Ecn, Etr, Eed. eexists; reflexivity.
Qed.

Lemma parse_kdc_rep_wf app v w trailing :
  0 <= app < 31 -> wf_rep_val app v = true -> encode (TApp app rfc_KDCRep) v = Some w ->
  exists rp, parse_kdc_rep app (w ++ trailing) = Some rp /\ project_rep v = Some rp.
Proof.
  intros Ha Hwf He. destruct (project_rep_total v) as (rp & Hp); [apply (wf_rep_val_inv _ _ Hwf)|].
  exists rp. rewrite (parse_kdc_rep_encode app v w trailing Ha Hwf He). auto.
Qed.

(* the decrypted part is the DER encoding of the sealed fields under APPLICATION 25 or 26, followed by anything *)
Definition seals (er : enc_rep) (pt : bytes) : Prop :=
  exists n x b pad, (n = 25 \/ n = 26) /\ wf_enc_inj n x er = true /\
                    encode (TApp n rfc_EncKDCRepPart) (inject_enc_rep x er) = Some b /\ pt = b ++ pad.

Lemma seals_dec er pt : seals er pt -> dec_enc_der pt = Some er.
Proof. intros (n & x & b & pad & Hn & Hwf & He & ->). eapply dec_enc_der_inject; eauto. Qed.

Corollary asrep_bytes_refines_sealed skew c rq v w trailing rp er t :
  wf_rep_val 11 v = true -> encode rfc_ASRep v = Some w -> project_rep v = Some rp ->
  (forall kv kt pt, as_key c rp = Ok (kv, kt) -> decrypt kt kv 3 (rp_cipher rp) = Ok pt -> seals er pt) ->
  asrep_verify_bytes skew c rq (w ++ trailing) t = asrep_verify (fun _ => Some er) skew c rq rp t.
Proof.
  intros Hwf He Hp Hd. unfold asrep_verify_bytes, parse_asrep.
  rewrite (parse_kdc_rep_encode 11 v w trailing ltac:(lia) Hwf He), Hp.
  apply asrep_verify_ext. intros kv kt pt EK ED. apply seals_dec. eauto.
Qed.

Corollary tgsrep_bytes_refines_sealed skew stype skey rq v w trailing rp er t :
  wf_rep_val 13 v = true -> encode rfc_TGSRep v = Some w -> project_rep v = Some rp ->
  (forall pt, decrypt stype skey 8 (rp_cipher rp) = Ok pt -> seals er pt) ->
  tgsrep_verify_bytes skew stype skey rq (w ++ trailing) t = tgsrep_verify (fun _ => Some er) skew stype skey rq rp t.
Proof.
  intros Hwf He Hp Hd. unfold tgsrep_verify_bytes, parse_tgsrep.
  rewrite (parse_kdc_rep_encode 13 v w trailing ltac:(lia) Hwf He), Hp.
  apply tgsrep_verify_ext. intros pt ED. apply seals_dec. eauto.
Qed.

Definition as_relevant (rp : kdc_rep) :=
  (rp_cname rp, rp_crealm rp, rp_etype rp, rp_kvno rp, rp_cipher rp, rp_hints rp).
Definition tgs_relevant (rp : kdc_rep) := (rp_cname rp, rp_tkt_realm rp, rp_cipher rp).

Lemma asrep_verify_relevant dec skew c rq r1 r2 t :
  as_relevant r1 = as_relevant r2 -> asrep_verify dec skew c rq r1 t = asrep_verify dec skew c rq r2 t.
Proof.
  destruct r1 as [cn1 cr1 tr1 et1 kv1 ci1 hs1], r2 as [cn2 cr2 tr2 et2 kv2 ci2 hs2].
  unfold as_relevant. cbn [rp_cname rp_crealm rp_etype rp_kvno rp_cipher rp_hints].
  intros E. injection E as -> -> -> -> -> ->. reflexivity.
Qed.

Lemma tgsrep_verify_relevant dec skew stype skey rq r1 r2 t :
  tgs_relevant r1 = tgs_relevant r2 ->
  tgsrep_verify dec skew stype skey rq r1 t = tgsrep_verify dec skew stype skey rq r2 t.
Proof.
  destruct r1 as [cn1 cr1 tr1 et1 kv1 ci1 hs1], r2 as [cn2 cr2 tr2 et2 kv2 ci2 hs2].
  unfold tgs_relevant. cbn [rp_cname rp_tkt_realm rp_cipher].
  intros E. injection E as -> -> ->. reflexivity.
Qed.

(* two wires (any octets at all) whose parsed replies agree on the listed fields get the same verdict *)
Theorem asrep_bytes_unsealed_fields skew c rq w1 w2 r1 r2 t :
  parse_asrep w1 = Some r1 -> parse_asrep w2 = Some r2 -> as_relevant r1 = as_relevant r2 ->
  asrep_verify_bytes skew c rq w1 t = asrep_verify_bytes skew c rq w2 t.
Proof. intros P1 P2 E. unfold asrep_verify_bytes. rewrite P1, P2. apply asrep_verify_relevant, E. Qed.

Theorem tgsrep_bytes_unsealed_fields skew stype skey rq w1 w2 r1 r2 t :
  parse_tgsrep w1 = Some r1 -> parse_tgsrep w2 = Some r2 -> tgs_relevant r1 = tgs_relevant r2 ->
  tgsrep_verify_bytes skew stype skey rq w1 t = tgsrep_verify_bytes skew stype skey rq w2 t.
Proof. intros P1 P2 E. unfold tgsrep_verify_bytes. rewrite P1, P2. apply tgsrep_verify_relevant, E. Qed.

(* the same on reply values: which fields of the KDC-REP can be replaced without any effect *)
(* AS: pvno [0] and the whole ticket [5] *)
Definition as_same_checked (v1 v2 : value) : Prop :=
  exists p1 p2 mt pad crealm cname k1 k2 encpart,
    v1 = VSeq [p1; mt; pad; crealm; cname; k1; encpart] /\
    v2 = VSeq [p2; mt; pad; crealm; cname; k2; encpart].

Lemma project_rep_as v1 v2 r1 r2 :
  as_same_checked v1 v2 -> project_rep v1 = Some r1 -> project_rep v2 = Some r2 -> as_relevant r1 = as_relevant r2.
Proof.
  intros (p1 & p2 & mt & pad & crealm & cname & k1 & k2 & encpart & -> & ->). unfold project_rep.
  destruct (v_int p1); [|discriminate]. destruct (v_int p2); [|discriminate].
  destruct (v_int mt); [|discriminate]. destruct (v_hints pad); [|discriminate].
  destruct (v_obytes crealm); [|discriminate]. destruct (v_names cname); [|discriminate].
  destruct (v_tkt_realm k1); [|discriminate]. destruct (v_tkt_realm k2); [|discriminate].
  destruct (v_encdata encpart) as [[[et k] ci]|]; [|discriminate].
  intros E1 E2. injection E1 as <-. injection E2 as <-. reflexivity.
Qed.

Theorem asrep_ignores_pvno_and_ticket skew c rq v1 v2 w1 w2 tr1 tr2 t :
  as_same_checked v1 v2 ->
  wf_rep_val 11 v1 = true -> wf_rep_val 11 v2 = true ->
  encode rfc_ASRep v1 = Some w1 -> encode rfc_ASRep v2 = Some w2 ->
  asrep_verify_bytes skew c rq (w1 ++ tr1) t = asrep_verify_bytes skew c rq (w2 ++ tr2) t.
Proof.
  intros Hs W1 W2 E1 E2.
  destruct (parse_kdc_rep_wf 11 v1 w1 tr1 ltac:(lia) W1 E1) as (r1 & P1 & Q1).
  destruct (parse_kdc_rep_wf 11 v2 w2 tr2 ltac:(lia) W2 E2) as (r2 & P2 & Q2).
  eapply asrep_bytes_unsealed_fields; [exact P1 | exact P2 | exact (project_rep_as v1 v2 r1 r2 Hs Q1 Q2)].
Qed.

(* TGS: pvno [0], padata [2], crealm [3], and inside the ticket tkt-vno, sname, enc-part, and of the reply's
   enc-part the etype and the kvno: only cname, the ticket's realm and the ciphertext are read *)
Definition tgs_same_checked (v1 v2 : value) : Prop :=
  exists p1 p2 mt pad1 pad2 cr1 cr2 cname tv1 tv2 trealm sn1 sn2 te1 te2 et1 et2 kv1 kv2 cipher,
    v1 = VSeq [p1; mt; pad1; cr1; cname; Some (VSeq [tv1; trealm; sn1; te1]); Some (VSeq [et1; kv1; cipher])] /\
    v2 = VSeq [p2; mt; pad2; cr2; cname; Some (VSeq [tv2; trealm; sn2; te2]); Some (VSeq [et2; kv2; cipher])].

Lemma project_rep_tgs v1 v2 r1 r2 :
  tgs_same_checked v1 v2 -> project_rep v1 = Some r1 -> project_rep v2 = Some r2 -> tgs_relevant r1 = tgs_relevant r2.
Proof.
  intros (p1 & p2 & mt & pad1 & pad2 & cr1 & cr2 & cname & tv1 & tv2 & trealm & sn1 & sn2 & te1 & te2 & et1 & et2
          & kv1 & kv2 & cipher & -> & ->). unfold project_rep, v_tkt_realm, v_encdata.
  destruct (v_int p1); [|discriminate]. destruct (v_int p2); [|discriminate].
  destruct (v_int mt); [|discriminate].
  destruct (v_hints pad1); [|discriminate]. destruct (v_hints pad2); [|discriminate].
  destruct (v_obytes cr1); [|discriminate]. destruct (v_obytes cr2); [|discriminate].
  destruct (v_names cname); [|discriminate].
  destruct (v_int tv1); [|discriminate]. destruct (v_int tv2); [|discriminate].
  destruct (v_obytes trealm); [|discriminate].
  destruct (v_int et1); [|discriminate]. destruct (v_int et2); [|discriminate].
  destruct (match kv1 with None => Some 0 | Some _ => v_int kv1 end); [|discriminate].
  destruct (match kv2 with None => Some 0 | Some _ => v_int kv2 end); [|discriminate].
  destruct (v_obytes cipher); [|discriminate].
  intros E1 E2. injection E1 as <-. injection E2 as <-. reflexivity.
Qed.

Theorem tgsrep_ignores_unchecked_fields skew stype skey rq v1 v2 w1 w2 tr1 tr2 t :
  tgs_same_checked v1 v2 ->
  wf_rep_val 13 v1 = true -> wf_rep_val 13 v2 = true ->
  encode rfc_TGSRep v1 = Some w1 -> encode rfc_TGSRep v2 = Some w2 ->
  tgsrep_verify_bytes skew stype skey rq (w1 ++ tr1) t = tgsrep_verify_bytes skew stype skey rq (w2 ++ tr2) t.
Proof.
  intros Hs W1 W2 E1 E2.
  destruct (parse_kdc_rep_wf 13 v1 w1 tr1 ltac:(lia) W1 E1) as (r1 & P1 & Q1).
  destruct (parse_kdc_rep_wf 13 v2 w2 tr2 ltac:(lia) W2 E2) as (r2 & P2 & Q2).
  eapply tgsrep_bytes_unsealed_fields; [exact P1 | exact P2 | exact (project_rep_tgs v1 v2 r1 r2 Hs Q1 Q2)].
Qed.

Theorem asrep_bytes_parse_failure skew c rq w t :
  parse_asrep w = None -> asrep_verify_bytes skew c rq w t = Ok false.
Proof. intros H. unfold asrep_verify_bytes. rewrite H. reflexivity. Qed.

Theorem tgsrep_bytes_parse_failure skew stype skey rq w t :
  parse_tgsrep w = None -> tgsrep_verify_bytes skew stype skey rq w t = Ok false.
Proof. intros H. unfold tgsrep_verify_bytes. rewrite H. reflexivity. Qed.

(* acceptance from the bytes = the bytes parse to a reply that is valid in the sense of C09 (as_valid / tgs_valid),
   with the DER decoder in the place of the abstract decoder of the sealed part *)
Theorem asrep_bytes_accept_iff skew c rq w t :
  asrep_verify_bytes skew c rq w t = Ok true <->
  exists rp, parse_asrep w = Some rp /\ as_valid dec_enc_der skew c rq rp t.
Proof.
  unfold asrep_verify_bytes. split.
  - destruct (parse_asrep w) as [rp|]; [|discriminate]. intros H. exists rp. split; [reflexivity|].
    apply asrep_accept_iff, H.
  - intros (rp & -> & H). apply asrep_accept_iff, H.
Qed.

Theorem tgsrep_bytes_accept_iff skew stype skey rq w t :
  tgsrep_verify_bytes skew stype skey rq w t = Ok true <->
  exists rp, parse_tgsrep w = Some rp /\ tgs_valid dec_enc_der skew stype skey rq rp t.
Proof.
  unfold tgsrep_verify_bytes. split.
  - destruct (parse_tgsrep w) as [rp|]; [|discriminate]. intros H. exists rp. split; [reflexivity|].
    apply tgsrep_accept_iff, H.
  - intros (rp & -> & H). apply tgsrep_accept_iff, H.
Qed.

(* the encoding of any message under another APPLICATION tag - the other kind of reply, a KRB-ERROR (30), an
   AP-REP, ... - followed by anything, is not a reply *)
Lemma parse_other_application app m t' v w trailing :
  0 <= app < 31 -> 0 <= m < 31 -> m <> app -> encode (TApp m t') v = Some w -> zlen w < 2 ^ 31 ->
  parse_kdc_rep app (w ++ trailing) = None.
Proof.
  intros Ha Hm Hne He Hs. apply encode_some in He. destruct He as [Hwf ->]. cbn [wf_val enc] in *.
  unfold parse_kdc_rep. rewrite go_unmarshal_app_other_tag; auto; try lia.
  - apply enc_nonempty, Hwf.
  - pose proof (zlen_tlv (ident 1 true m) (enc t' v)). lia.
Qed.

Theorem asrep_rejects_other_application skew c rq m t' v w trailing t :
  0 <= m < 31 -> m <> 11 -> encode (TApp m t') v = Some w -> zlen w < 2 ^ 31 ->
  asrep_verify_bytes skew c rq (w ++ trailing) t = Ok false.
Proof.
  intros Hm Hne He Hs. apply asrep_bytes_parse_failure. unfold parse_asrep.
  eapply parse_other_application; eauto. lia.
Qed.

Theorem tgsrep_rejects_other_application skew stype skey rq m t' v w trailing t :
  0 <= m < 31 -> m <> 13 -> encode (TApp m t') v = Some w -> zlen w < 2 ^ 31 ->
  tgsrep_verify_bytes skew stype skey rq (w ++ trailing) t = Ok false.
Proof.
  intros Hm Hne He Hs. apply tgsrep_bytes_parse_failure. unfold parse_tgsrep.
  eapply parse_other_application; eauto. lia.
Qed.

(* in particular an AS-REP is never taken for a TGS-REP, nor the converse, nor a KRB-ERROR for either *)
Corollary tgsrep_rejects_asrep skew stype skey rq v w trailing t :
  encode rfc_ASRep v = Some w -> zlen w < 2 ^ 31 -> tgsrep_verify_bytes skew stype skey rq (w ++ trailing) t = Ok false.
Proof. intros He Hs. eapply (tgsrep_rejects_other_application _ _ _ _ 11); eauto; lia. Qed.

Corollary asrep_rejects_tgsrep skew c rq v w trailing t :
  encode rfc_TGSRep v = Some w -> zlen w < 2 ^ 31 -> asrep_verify_bytes skew c rq (w ++ trailing) t = Ok false.
Proof. intros He Hs. eapply (asrep_rejects_other_application _ _ _ 13); eauto; lia. Qed.

Corollary asrep_rejects_krb_error skew c rq v w trailing t :
  encode rfc_KRBError v = Some w -> zlen w < 2 ^ 31 -> asrep_verify_bytes skew c rq (w ++ trailing) t = Ok false.
Proof. intros He Hs. eapply (asrep_rejects_other_application _ _ _ 30); eauto; lia. Qed.

(* a reply whose msg-type is not the one of the exchange is not a reply either (pvno, by contrast, is not read) *)
Theorem parse_kdc_rep_msg_type app v w trailing :
  0 <= app < 31 ->
  wf_val rfc_KDCRep v = true -> gowf g_KDCRep v = true -> zlen (enc (TApp app rfc_KDCRep) v) < 2 ^ 31 ->
  v_msg_type v <> Some app ->
  encode (TApp app rfc_KDCRep) v = Some w -> parse_kdc_rep app (w ++ trailing) = None.
Proof.
  intros Ha Hw Hg Hs Hm He. apply encode_some in He. destruct He as [_ ->].
  rewrite <- erase_KDCRep in *. unfold parse_kdc_rep. rewrite go_unmarshal_app_encode; auto.
  destruct (v_msg_type v) as [mt|]; [|reflexivity].
  destruct (Z.eqb_spec mt app); [congruence | reflexivity].
Qed.
