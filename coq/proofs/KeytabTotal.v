(* Keytab.kt_unmarshal is total on every byte string: it never panics and the fuel given by
   kt_unmarshal (one unit per remaining byte) is never exhausted, i.e. the Go loop terminates. *)
From Gokrb5.lib Require Import Bytes JV.
From Gokrb5.model Require Import Keytab.
From Gokrb5.proofs Require Import BinReader.

Definition fine {A} (r : res A) : Prop := match r with Panic _ => False | Err c => c <> 99 | Ok _ => True end.

(* also covers the model's explicit `match r with Ok a => f a | Err c => Err c | Panic s => Panic s end` *)
Lemma bind_fine {A B} (r : res A) (f : A -> res B) :
  fine r -> (forall a, r = Ok a -> fine (f a)) -> fine (bind r f).
Proof. destruct r; cbn; auto. Qed.

Lemma read_n_fine w r : fine (read_n w r).
Proof. unfold read_n. destruct (length r <? w)%nat; cbn; lia. Qed.

Lemma read_int_fine w le r : fine (read_int w le r).
Proof. apply (bind_fine (read_n w r)); [apply read_n_fine|]. intros [x r'] _. exact I. Qed.

Lemma read_bytes_fine s r : fine (read_bytes s r).
Proof. unfold read_bytes. destruct (s <? 0); [cbn; lia|apply read_n_fine]. Qed.

Lemma parse_entry_fine v le eb : fine (parse_entry v le eb).
Proof.
  unfold parse_entry. destruct (parse_principal v le eb) as [pr r1].
  apply bind_fine; [apply read_int_fine|intros [ts r2] _].
  apply bind_fine; [apply read_int_fine|intros [k8 r3] _].
  apply bind_fine; [apply read_int_fine|intros [kt r4] _].
  apply bind_fine; [apply read_int_fine|intros [kl r5] _].
  apply bind_fine; [apply read_bytes_fine|intros [kv r6] _].
  apply bind_fine; [|intros; exact I].
  destruct (4 <=? length r6)%nat; [|exact I].
  apply bind_fine; [apply read_int_fine|intros [x r7] _; exact I].
Qed.

Lemma kt_next_fine f v le r acc :
  (forall l r', (length r' + 4 <= length r)%nat -> fine (kt_loop f v le l r' acc)) ->
  fine (kt_next f v le r acc).
Proof.
  intros IH. unfold kt_next. destruct (Nat.ltb_spec (length r) 4); [exact I|].
  apply (bind_fine (read_int 4 le r)); [apply read_int_fine|]. intros [l r'] E.
  apply IH. rewrite (read_int_rest _ _ _ _ _ E). lia.
Qed.

Lemma kt_loop_fine v le : forall f l r acc, (length r < f)%nat -> fine (kt_loop f v le l r acc).
Proof.
  induction f as [|f IH]; intros l r acc Hf; [lia|].
  rewrite kt_loop_unfold.
  destruct (Z.eqb_spec l 0) as [|Hnz]; [exact I|].
  destruct (Z.ltb_spec l 0) as [Hneg|Hpos].
  - cbv zeta. destruct (Z.ltb_spec (sint 32 (- l)) 0) as [|Hh]; [exact I|].
    destruct (Z.ltb_spec (zlen r) (sint 32 (- l))) as [|Hle]; [exact I|].
    apply kt_next_fine. intros l' r' Hr'. apply IH. rewrite skipn_length in Hr'. lia.
  - destruct (Z.ltb_spec (zlen r) l) as [|Hle]; [cbn; lia|].
    apply (bind_fine (parse_entry v le (firstn (Z.to_nat l) r))); [apply parse_entry_fine|]. intros e _.
    apply kt_next_fine. intros l' r' Hr'. apply IH. rewrite skipn_length in Hr'. lia.
Qed.

Theorem kt_unmarshal_total b : fine (kt_unmarshal b).
Proof.
  unfold kt_unmarshal. destruct b as [|b0 [|v r]]; try (cbn; lia).
  destruct (negb (b0 =? 5)); [cbn; lia|].
  destruct (negb ((v =? 1) || (v =? 2))); [cbn; lia|].
  destruct (length r =? 0)%nat; [exact I|].
  apply (bind_fine (read_int 4 (v =? 1) r)); [apply read_int_fine|]. intros [l r'] E.
  apply (bind_fine (kt_loop (S (length r')) v (v =? 1) l r' [])); [|intros; exact I].
  apply kt_loop_fine. lia.
Qed.
