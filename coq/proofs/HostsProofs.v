(* Gokrb5.proofs.HostsProofs — randServOrder returns every configured server exactly once under the keys
   1..n for every sequence of rand.Intn results, and (repaired code) leaves the configuration untouched;
   GetKDCs / GetKpasswdServers inherit both. *)
From Coq Require Import String Permutation.
From Gokrb5.lib Require Import Bytes GoString.
From Gokrb5.model Require Import Krb5Conf Hosts.
Open Scope Z_scope.

Lemma set_nth_perm {A} (l : list A) : forall i v x, nth_error l i = Some v ->
  Permutation (v :: set_nth i x l) (x :: l).
Proof.
  induction l as [|y l IH]; intros [|i] v x H; cbn in *; try discriminate.
  - inversion H; subst. apply perm_swap.
  - specialize (IH i v x H).
    apply perm_trans with (y :: v :: set_nth i x l); [apply perm_swap|].
    apply perm_trans with (y :: x :: l); [now apply perm_skip|apply perm_swap].
Qed.

Lemma set_nth_length {A} (l : list A) : forall i x, length (set_nth i x l) = length l.
Proof. induction l as [|y l IH]; intros [|i] x; cbn; auto. Qed.

Lemma set_nth_app_l {A} (a b : list A) : forall i x, (i < length a)%nat ->
  set_nth i x (a ++ b) = set_nth i x a ++ b.
Proof.
  induction a as [|y a IH]; intros [|i] x H; cbn in *; try lia; [reflexivity|].
  rewrite IH by lia. reflexivity.
Qed.

Lemma set_nth_last_same {A} (a : list A) x : set_nth (length a) x (a ++ [x]) = a ++ [x].
Proof. induction a as [|y a IH]; cbn; [reflexivity|now rewrite IH]. Qed.

(* removing the chosen element by "move the last one into its place, drop the last" *)
Lemma swap_remove_perm {A} (cur : list A) i v lastv :
  nth_error cur i = Some v -> nth_error cur (length cur - 1) = Some lastv ->
  Permutation (v :: removelast (set_nth i lastv cur)) cur /\
  length (removelast (set_nth i lastv cur)) = (length cur - 1)%nat.
Proof.
  intros Hv Hl.
  destruct (exists_last (l := cur)) as (init & z & ->).
  { intros ->. destruct i; discriminate. }
  rewrite app_length in Hl. cbn [length] in Hl.
  replace (length init + 1 - 1)%nat with (length init) in Hl by lia.
  rewrite nth_error_app2 in Hl by lia. rewrite Nat.sub_diag in Hl. cbn in Hl. inversion Hl; subst z.
  assert (i < length init \/ i = length init)%nat as [Hi| ->].
  { assert (i < length (init ++ [lastv]))%nat by (apply nth_error_Some; congruence).
    rewrite app_length in H; cbn in H; lia. }
  - rewrite set_nth_app_l by exact Hi. rewrite removelast_last.
    rewrite nth_error_app1 in Hv by exact Hi.
    split.
    + apply perm_trans with (lastv :: init); [now apply set_nth_perm|]. apply Permutation_cons_append.
    + rewrite set_nth_length, app_length. cbn; lia.
  - rewrite set_nth_last_same, removelast_last.
    rewrite nth_error_app2 in Hv by lia. rewrite Nat.sub_diag in Hv. cbn in Hv. inversion Hv; subst v.
    split; [apply Permutation_cons_append|]. rewrite app_length; cbn; lia.
Qed.

(* the loop returns a permutation of the slice and leaves a permutation in the backing array *)
Lemma rso_loop_ok : forall n cur tail o, length cur = n ->
  exists vals arr, rso_loop n cur tail o = Ok (vals, arr) /\
                   Permutation vals cur /\ Permutation arr (cur ++ tail).
Proof.
  induction n as [|n IH]; intros cur tail o Hn.
  - destruct cur; [|discriminate]. exists [], tail. cbn. auto.
  - cbn [rso_loop].
    set (l := zlen cur). assert (Hl : l = Z.of_nat (S n)) by (unfold l, zlen; now rewrite Hn).
    destruct (match o with [] => (0, []) | o0 :: r => (o0, r) end) as [x o'].
    assert (Hr : 0 <= x mod l < zlen cur) by (apply Z.mod_pos_bound; lia).
    destruct (gindex_ok 70 cur (x mod l) Hr) as (v & -> & Hv). cbn [bind].
    destruct (Z.ltb_spec 1 l) as [H1|H1].
    + assert (Hq : 0 <= l - 1 < zlen cur) by (fold l; lia).
      destruct (gindex_ok 71 cur (l - 1) Hq) as (lastv & -> & Hlast). cbn [bind].
      replace (Z.to_nat (l - 1)) with (length cur - 1)%nat in Hlast by (unfold l, zlen; lia).
      destruct (swap_remove_perm cur _ v lastv Hv Hlast) as [Hp Hlen].
      destruct (IH (removelast (set_nth (Z.to_nat (x mod l)) lastv cur)) (v :: tail) o'
                   ltac:(rewrite Hlen, Hn; lia)) as (vals & arr & -> & Pv & Pa).
      cbn [bind fst snd]. exists (v :: vals), arr. split; [reflexivity|]. split.
      * apply perm_trans with (v :: removelast (set_nth (Z.to_nat (x mod l)) lastv cur)); [now apply perm_skip|exact Hp].
      * apply perm_trans with (1 := Pa).
        apply perm_trans with ((v :: removelast (set_nth (Z.to_nat (x mod l)) lastv cur)) ++ tail).
        -- apply Permutation_sym, Permutation_middle.
        -- now apply Permutation_app_tail.
    + assert (n = 0)%nat by lia. subst n.
      destruct cur as [|c [|c2 cur]]; try discriminate.
      assert (x mod l = 0) by (rewrite Hl; apply Z.mod_1_r). rewrite H in Hv. cbn in Hv. inversion Hv; subst v.
      exists [c], ([c] ++ tail). auto.
Qed.

Lemma numbered_keys vals : forall i, map fst (numbered i vals) = map (fun k => i + Z.of_nat k) (seq 0 (length vals)).
Proof.
  induction vals as [|v vals IH]; intros i; [reflexivity|].
  cbn [numbered map length seq fst]. f_equal; [lia|].
  rewrite IH. rewrite <- seq_shift, map_map. apply map_ext. intros; lia.
Qed.

Lemma numbered_vals vals : forall i, map snd (numbered i vals) = vals.
Proof. induction vals as [|v vals IH]; intros i; cbn; [reflexivity|now rewrite IH]. Qed.

(* randServOrder, for every sequence of rand.Intn results: the values stored under the keys 1..n are a
   permutation of the configured servers (each exactly once), and the argument slice is unchanged *)
Theorem rand_serv_order_perm : forall (servers : list bytes) (oracle : list Z),
  servers <> [] ->
  exists vals, rand_serv_order servers oracle = Ok (vals, servers) /\
               Permutation vals servers /\
               map fst (numbered 1 vals) = map (fun k => 1 + Z.of_nat k) (seq 0 (length servers)) /\
               map snd (numbered 1 vals) = vals.
Proof.
  intros servers oracle Hne. unfold rand_serv_order.
  assert (forall vals, Permutation vals servers ->
            map fst (numbered 1 vals) = map (fun k => 1 + Z.of_nat k) (seq 0 (length servers)) /\
            map snd (numbered 1 vals) = vals) as K.
  { intros vals P. rewrite numbered_keys, numbered_vals, (Permutation_length P). auto. }
  destruct (Z.ltb_spec 1 (zlen servers)).
  - destruct (rso_loop_ok (length servers) servers [] oracle eq_refl) as (vals & arr & -> & P & _).
    cbn [bind fst]. exists vals. split; [reflexivity|]. split; [exact P|]. now apply K.
  - destruct servers as [|s [|s2 rest]]; [congruence| |rewrite !zlen_cons in H; pose proof (zlen_nonneg rest); lia].
    cbn. exists [s]. split; [reflexivity|]. split; [apply Permutation_refl|]. now apply K.
Qed.

Example rand_serv_order_example :
  rand_serv_order [bs "k1"; bs "k2"; bs "k3"; bs "k4"] [3; 0; 1; 0]
  = Ok ([bs "k4"; bs "k1"; bs "k2"; bs "k3"], [bs "k1"; bs "k2"; bs "k3"; bs "k4"]).
Proof. vm_compute. reflexivity. Qed.

(* before fix-2 the same call permutes the caller's slice (Realm.KDC) *)
Theorem rand_serv_order_unrepaired_modifies_config :
  exists servers oracle vals arr,
    rand_serv_order_unrepaired servers oracle = Ok (vals, arr) /\ arr <> servers.
Proof.
  exists [bs "k1"; bs "k2"; bs "k3"; bs "k4"], [0; 0; 0; 0]. eexists; eexists.
  split; [vm_compute; reflexivity|]. intros E. discriminate E.
Qed.

Theorem rand_serv_order_empty_panics : forall oracle, is_panic (rand_serv_order [] oracle) = true.
Proof. reflexivity. Qed.

Definition has_realm (rname : bytes) (rs : list realm) : bool :=
  existsb (fun r => beq_bytes (r_name r) rname) rs.

Lemma last_kdcs_nomatch rname rs : has_realm rname rs = false ->
  forall acc, fold_left (fun ks r => if beq_bytes (r_name r) rname then r_kdc r else ks) rs acc = acc.
Proof.
  induction rs as [|r rs IH]; cbn; [reflexivity|]. rewrite orb_false_iff. intros [Hr Hrs] acc.
  rewrite IH by exact Hrs. now rewrite Hr.
Qed.

(* Writing back the list that the look-up loop ends with changes nothing, whatever list it started from:
   it is the KDC list of the last entry of that name, which is the entry written to. *)
Lemma set_last_kdcs_fold rname rs : forall acc,
  set_last_kdcs rname (fold_left (fun ks r => if beq_bytes (r_name r) rname then r_kdc r else ks) rs acc) rs
  = (rs, has_realm rname rs).
Proof.
  induction rs as [|r rs IH]; intros acc; [reflexivity|]. cbn [fold_left set_last_kdcs has_realm existsb].
  rewrite IH. fold (has_realm rname rs). destruct (has_realm rname rs) eqn:Hm; [now rewrite orb_true_r|].
  rewrite orb_false_r, (last_kdcs_nomatch _ _ Hm).
  destruct (beq_bytes (r_name r) rname); [destruct r|]; reflexivity.
Qed.

Lemma set_last_kdcs_same rname rs : fst (set_last_kdcs rname (last_kdcs rname rs) rs) = rs.
Proof. unfold last_kdcs. now rewrite set_last_kdcs_fold. Qed.

Lemma hcfg_eta c : {| h_default_realm := h_default_realm c; h_dns_lookup_kdc := h_dns_lookup_kdc c;
                      h_realms := h_realms c |} = c.
Proof. destruct c; reflexivity. Qed.

Lemma zlen_pos_ne {A} (l : list A) : l <> [] -> (0 <? zlen l) = true.
Proof. intros H. apply Z.ltb_lt, zlen_pos, H. Qed.

(* GetKDCs: when the realm (the default realm for "") has configured KDCs, the call returns their number
   and a map with the keys 1..n whose values are those KDCs, each exactly once, for every sequence of
   rand.Intn results; the configuration afterwards is the configuration before. *)
Theorem get_kdcs_each_once : forall (c : hcfg) (rname : bytes) (oracle : list Z),
  let name := if is_nil rname then h_default_realm c else rname in
  let ks := last_kdcs name (h_realms c) in
  ks <> [] ->
  exists vals, get_kdcs c rname oracle = Ok (zlen ks, numbered 1 vals, c) /\
               Permutation vals ks /\
               map fst (numbered 1 vals) = map (fun k => 1 + Z.of_nat k) (seq 0 (length ks)) /\
               map snd (numbered 1 vals) = vals.
Proof.
  intros c rname oracle name ks Hne. unfold get_kdcs. fold name. fold ks.
  rewrite (zlen_pos_ne ks Hne).
  destruct (rand_serv_order_perm ks oracle Hne) as (vals & -> & P & K1 & K2).
  cbn [bind fst snd]. exists vals. split; [|auto].
  unfold ks at 2. rewrite set_last_kdcs_same, hcfg_eta. reflexivity.
Qed.

(* without configured KDCs and without DNS look-up the call fails (and never panics) *)
Theorem get_kdcs_none : forall c rname oracle,
  last_kdcs (if is_nil rname then h_default_realm c else rname) (h_realms c) = [] ->
  h_dns_lookup_kdc c = false -> get_kdcs c rname oracle = Err invalid.
Proof. intros c rname oracle H D. unfold get_kdcs. rewrite H, D. reflexivity. Qed.

Example get_kdcs_example :
  let r := {| r_name := bs "A.B"; r_admin := []; r_dd := []; r_kdc := [bs "k1:88"; bs "k2:88"; bs "k3:88"];
              r_kpw := []; r_mkdc := [] |} in
  let c := {| h_default_realm := bs "A.B"; h_dns_lookup_kdc := false; h_realms := [r] |} in
  last_kdcs (bs "A.B") (h_realms c) <> [] /\
  get_kdcs c [] [2; 0; 0] = Ok (3, [(1, bs "k3:88"); (2, bs "k1:88"); (3, bs "k2:88")], c).
Proof. cbv zeta. split; [discriminate|vm_compute; reflexivity]. Qed.

Lemma with_kpw_same r : with_kpw r (r_kpw r) = r.
Proof. destruct r; reflexivity. Qed.

Lemma set_first_kpw_same rname rs r : first_realm rname rs = Some r -> set_first_kpw rname (r_kpw r) rs = rs.
Proof.
  induction rs as [|x rs IH]; cbn; [discriminate|].
  destruct (beq_bytes (r_name x) rname).
  - intros H; inversion H; subst. now rewrite with_kpw_same.
  - intros H. now rewrite IH.
Qed.

(* GetKpasswdServers (no DNS look-up): the kpasswd servers of the first entry of the realm, each exactly
   once; the configuration is unchanged. *)
Theorem get_kpasswd_each_once : forall (c : hcfg) (rname : bytes) (oracle : list Z) (r : realm),
  h_dns_lookup_kdc c = false ->
  first_realm rname (h_realms c) = Some r -> r_kpw r <> [] ->
  exists vals, get_kpasswd_servers c rname oracle = Ok (zlen (r_kpw r), numbered 1 vals, c) /\
               Permutation vals (r_kpw r) /\
               map fst (numbered 1 vals) = map (fun k => 1 + Z.of_nat k) (seq 0 (length (r_kpw r))) /\
               map snd (numbered 1 vals) = vals.
Proof.
  intros c rname oracle r D F Hne. destruct c as [dr dns rs].
  cbn [h_dns_lookup_kdc h_realms h_default_realm] in *. subst dns.
  unfold get_kpasswd_servers. cbn [h_dns_lookup_kdc h_realms h_default_realm]. rewrite F.
  assert ((zlen (r_kpw r) <? 1) = false) as ->.
  { pose proof (zlen_pos_ne _ Hne) as Z. apply Z.ltb_lt in Z. apply Z.ltb_ge. lia. }
  destruct (rand_serv_order_perm (r_kpw r) oracle Hne) as (vals & -> & P & K1 & K2).
  cbn [bind fst snd]. exists vals. split; [|auto].
  rewrite (set_first_kpw_same _ _ _ F). reflexivity.
Qed.

(* the fall-back: no kpasswd_server configured, the admin servers "host:port" are served on port 464 *)
Theorem get_kpasswd_fallback_each_once : forall (c : hcfg) (rname : bytes) (oracle : list Z) (r : realm) ks,
  h_dns_lookup_kdc c = false ->
  first_realm rname (h_realms c) = Some r -> r_kpw r = [] ->
  admin_to_kpasswd (r_admin r) = Ok ks -> ks <> [] ->
  exists vals, get_kpasswd_servers c rname oracle = Ok (zlen ks, numbered 1 vals, c) /\ Permutation vals ks.
Proof.
  intros c rname oracle r ks D F E A Hne. destruct c as [dr dns rs].
  cbn [h_dns_lookup_kdc h_realms h_default_realm] in *. subst dns.
  unfold get_kpasswd_servers. cbn [h_dns_lookup_kdc h_realms h_default_realm]. rewrite F, E.
  cbn [zlen length Z.of_nat Z.ltb Z.compare]. rewrite A. cbn [bind].
  assert ((zlen ks <? 1) = false) as ->.
  { pose proof (zlen_pos_ne _ Hne) as Z. apply Z.ltb_lt in Z. apply Z.ltb_ge. lia. }
  destruct (rand_serv_order_perm ks oracle Hne) as (vals & -> & P & _).
  cbn [bind fst]. exists vals. auto.
Qed.

Example get_kpasswd_example :
  let r := {| r_name := bs "A.B"; r_admin := [bs "a1:749"; bs "a2"]; r_dd := []; r_kdc := [];
              r_kpw := []; r_mkdc := [] |} in
  let c := {| h_default_realm := []; h_dns_lookup_kdc := false; h_realms := [r] |} in
  admin_to_kpasswd (r_admin r) = Ok [bs "a1:464"] /\
  get_kpasswd_servers c (bs "A.B") [] = Ok (1, [(1, bs "a1:464")], c).
Proof. cbv zeta. split; vm_compute; reflexivity. Qed.
