(* Gokrb5.proofs.FlagsProofs — types.KerberosFlags: flag i is bit (7 - i mod 8) of octet i/8 (RFC 4120 5.2.8:
   bit 0 is the most significant bit of the first octet); SetFlag / UnsetFlag change exactly that bit;
   IsFlagSet reads it; the pinned IsFlagSet panics on a short flag word, the repaired one never does. *)
From Gokrb5.lib Require Import Bytes JV.
From Gokrb5.model Require Import Flags.

Local Open Scope Z_scope.

(* the RFC numbering, written independently of the code *)
Definition rfc_bit (bs : bytes) (i : Z) : option bool :=
  match nth_error bs (Z.to_nat (i / 8)) with
  | Some x => Some (Z.testbit x (7 - i mod 8))
  | None => None
  end.

Lemma upd_nat_spec : forall l n g l', upd_nat l n g = Some l' ->
  length l' = length l /\
  forall m, nth_error l' m = if Nat.eqb m n then option_map g (nth_error l n) else nth_error l m.
Proof.
  induction l as [| x r IH]; intros n g l' H; [discriminate|].
  destruct n as [| n]; cbn [upd_nat] in H.
  - inversion H; subst. split; [reflexivity|]. intros [| m]; reflexivity.
  - destruct (upd_nat r n g) as [r'|] eqn:E; [|discriminate]. inversion H; subst.
    destruct (IH _ _ _ E) as [HL HN]. split; [simpl; congruence|].
    intros [| m]; [reflexivity|]. simpl. apply HN.
Qed.

Lemma upd_nat_some : forall l n g, (n < length l)%nat -> exists l', upd_nat l n g = Some l'.
Proof.
  induction l as [| x r IH]; intros n g H; [simpl in H; lia|].
  destruct n; [eexists; reflexivity|]. simpl in H.
  destruct (IH n g ltac:(lia)) as [r' E]. exists (x :: r'). cbn [upd_nat]. rewrite E. reflexivity.
Qed.

Lemma upd_nat_none : forall l n g, (length l <= n)%nat -> upd_nat l n g = None.
Proof.
  induction l as [| x r IH]; intros n g H; [reflexivity|].
  destruct n; [simpl in H; lia|]. cbn [upd_nat]. rewrite IH by (simpl in H; lia). reflexivity.
Qed.

Lemma upd_nat_wf : forall l n g l', wf_bytes l -> (forall x, 0 <= x < 256 -> 0 <= g x < 256) ->
  upd_nat l n g = Some l' -> wf_bytes l'.
Proof.
  induction l as [| x r IH]; intros n g l' W G H; [discriminate|]. inversion W; subst.
  destruct n; cbn [upd_nat] in H.
  - inversion H; subst. constructor; [apply G; assumption | assumption].
  - destruct (upd_nat r n g) eqn:E; [|discriminate]. inversion H; subst.
    constructor; [assumption | eapply IH; eassumption].
Qed.

Lemma pad_loop_bytes : forall n f, bs_bytes (pad_loop n f) = bs_bytes f ++ repeatz 0 n.
Proof.
  induction n; intros f; cbn [pad_loop repeatz]; [rewrite app_nil_r; reflexivity|].
  rewrite IHn. cbn [bs_bytes]. rewrite <- app_assoc. reflexivity.
Qed.

Lemma pad4_bytes f : bs_bytes (pad4 f) = bs_bytes f ++ repeatz 0 (4 - length (bs_bytes f)).
Proof. apply pad_loop_bytes. Qed.

Lemma pad4_length f : length (bs_bytes (pad4 f)) = Nat.max 4 (length (bs_bytes f)).
Proof. rewrite pad4_bytes, app_length, repeatz_length. lia. Qed.

Lemma pad4_id f : (4 <= length (bs_bytes f))%nat -> pad4 f = f.
Proof. intros H. unfold pad4. replace (4 - length (bs_bytes f))%nat with 0%nat by lia. reflexivity. Qed.

Lemma pad_loop_bitlen : forall n f, n <> O -> bs_bitlen (pad_loop n f) = 8 * Z.of_nat (length (bs_bytes f) + n).
Proof.
  induction n; intros f H; [congruence|]. cbn [pad_loop].
  destruct n.
  - cbn [pad_loop bs_bitlen]. unfold zlen. rewrite app_length. simpl length. lia.
  - rewrite IHn by congruence. cbn [bs_bytes]. rewrite app_length. simpl length. lia.
Qed.

(* BitLength after padding: 32 when bytes were appended, unchanged otherwise *)
Lemma pad4_bitlen f :
  bs_bitlen (pad4 f) = if (length (bs_bytes f) <? 4)%nat then 32 else bs_bitlen f.
Proof.
  destruct (Nat.ltb_spec (length (bs_bytes f)) 4).
  - unfold pad4. rewrite pad_loop_bitlen by lia. lia.
  - rewrite pad4_id by lia. reflexivity.
Qed.

Lemma pad4_wf f : wf_bytes (bs_bytes f) -> wf_bytes (bs_bytes (pad4 f)).
Proof. intros. rewrite pad4_bytes. apply wf_bytes_app. split; [assumption | apply repeatz_wf]. Qed.

Lemma byte_ix_nonneg i : 0 <= i -> byte_ix i = i / 8.
Proof. intros. unfold byte_ix. apply Z.quot_div_nonneg; lia. Qed.

Lemma bit_mask_nonneg i : 0 <= i -> bit_mask i = 2 ^ (7 - i mod 8).
Proof.
  intros H. unfold bit_mask. rewrite byte_ix_nonneg by assumption.
  replace (i - 8 * (i / 8)) with (i mod 8) by (rewrite Z.mod_eq; lia).
  pose proof (Z.mod_pos_bound i 8 ltac:(lia)). destruct (Z.ltb_spec (7 - i mod 8) 8); [reflexivity | lia].
Qed.

Lemma land_pow2 x p : 0 <= p -> Z.land x (2 ^ p) = if Z.testbit x p then 2 ^ p else 0.
Proof.
  intros Hp. apply Z.bits_inj'. intros n Hn. rewrite Z.land_spec, Z.pow2_bits_eqb by assumption.
  destruct (Z.eqb_spec p n) as [E | E].
  - subst. destruct (Z.testbit x n); [rewrite Z.pow2_bits_true by assumption; reflexivity | rewrite Z.bits_0; reflexivity].
  - rewrite andb_false_r. destruct (Z.testbit x p); [rewrite Z.pow2_bits_false by lia; reflexivity | rewrite Z.bits_0; reflexivity].
Qed.

Lemma test_mask x p : 0 <= p -> negb (Z.land x (2 ^ p) =? 0) = Z.testbit x p.
Proof.
  intros Hp. rewrite land_pow2 by assumption. destruct (Z.testbit x p); [|reflexivity].
  pose proof (Z.pow_pos_nonneg 2 p ltac:(lia) Hp). destruct (Z.eqb_spec (2 ^ p) 0); [lia | reflexivity].
Qed.

Lemma lor_pow2_bit x p q : 0 <= p -> 0 <= q ->
  Z.testbit (Z.lor x (2 ^ p)) q = if p =? q then true else Z.testbit x q.
Proof. intros. rewrite Z.lor_spec, Z.pow2_bits_eqb by assumption. destruct (p =? q), (Z.testbit x q); reflexivity. Qed.

Lemma ldiff_pow2_bit x p q : 0 <= p -> 0 <= q ->
  Z.testbit (Z.ldiff x (2 ^ p)) q = if p =? q then false else Z.testbit x q.
Proof. intros. rewrite Z.ldiff_spec, Z.pow2_bits_eqb by assumption. destruct (p =? q), (Z.testbit x q); reflexivity. Qed.

Lemma byte_shiftr x : 0 <= x < 256 <-> 0 <= x /\ Z.shiftr x 8 = 0.
Proof.
  rewrite Z.shiftr_div_pow2 by lia. change (2 ^ 8) with 256.
  pose proof (Z.div_mod x 256 ltac:(lia)). pose proof (Z.mod_pos_bound x 256 ltac:(lia)).
  split; [intros; split; [lia | apply Z.div_small; lia] | lia].
Qed.

Lemma byte_bits_bound x p : 0 <= p < 8 -> 0 <= x < 256 -> 0 <= Z.lor x (2 ^ p) < 256 /\ 0 <= Z.ldiff x (2 ^ p) < 256.
Proof.
  intros Hp Hx. assert (H2 : 0 <= 2 ^ p < 256).
  { split; [apply Z.pow_nonneg; lia|]. change 256 with (2 ^ 8). apply Z.pow_lt_mono_r; lia. }
  rewrite !byte_shiftr in *. rewrite Z.shiftr_lor, Z.shiftr_ldiff, (proj2 Hx), (proj2 H2).
  repeat split; try reflexivity; [apply Z.lor_nonneg | apply Z.ldiff_nonneg]; tauto.
Qed.

Lemma update_at_nth l b g : 0 <= b ->
  update_at l b g = match upd_nat l (Z.to_nat b) g with Some l' => Ok l' | None => Panic site_flag_index end.
Proof. intros H. unfold update_at. destruct (Z.ltb_spec b 0); [lia | reflexivity]. Qed.

Definition bit_or_false (o : option bool) : bool := match o with Some b => b | None => false end.

(* the repaired IsFlagSet reads the RFC bit, and a bit that is not there is not set *)
Lemma rfc_bit_out bs i : 0 <= i -> zlen bs <= i / 8 -> rfc_bit bs i = None.
Proof. intros Hi H. unfold rfc_bit. rewrite nth_error_out by exact H. reflexivity. Qed.

Theorem is_flag_set_spec f i : 0 <= i -> is_flag_set f i = Ok (bit_or_false (rfc_bit (bs_bytes f) i)).
Proof.
  intros Hi. unfold is_flag_set. rewrite byte_ix_nonneg by assumption.
  destruct (Z.ltb_spec i 0); [lia|]. cbn [orb].
  destruct (Z.leb_spec (zlen (bs_bytes f)) (i / 8)) as [Hs | Hs]; [rewrite rfc_bit_out by assumption; reflexivity|].
  pose proof (Z.mod_pos_bound i 8 ltac:(lia)).
  unfold is_flag_set_orig, rfc_bit. rewrite byte_ix_nonneg, bit_mask_nonneg, gindex_nth by (try apply Z.div_pos; lia).
  destruct (nth_error (bs_bytes f) (Z.to_nat (i / 8))) eqn:E.
  - cbn [bind bit_or_false]. rewrite test_mask by lia. reflexivity.
  - apply nth_error_None in E. unfold zlen in Hs. assert (0 <= i / 8) by (apply Z.div_pos; lia). lia.
Qed.

Theorem is_flag_set_total f i : exists b, is_flag_set f i = Ok b.
Proof.
  destruct (Z_lt_le_dec i 0).
  - exists false. unfold is_flag_set. destruct (Z.ltb_spec i 0); [reflexivity | lia].
  - eexists. apply is_flag_set_spec. assumption.
Qed.

(* the pinned IsFlagSet: index out of range on a flag word shorter than the bit tested (C04) *)
Theorem is_flag_set_orig_panics_short f i :
  0 <= i -> 8 * zlen (bs_bytes f) <= i -> is_flag_set_orig f i = Panic site_flag_index.
Proof.
  intros Hi Hs. unfold is_flag_set_orig. rewrite byte_ix_nonneg by assumption.
  assert (H8 : zlen (bs_bytes f) <= i / 8) by (apply Z.div_le_lower_bound; lia).
  pose proof (zlen_nonneg (bs_bytes f)). rewrite gindex_nth, nth_error_out by lia. reflexivity.
Qed.

Example is_flag_set_orig_panics_ex :
  is_flag_set_orig (mkBits [64; 0] 16) 31 = Panic site_flag_index /\ is_flag_set (mkBits [64; 0] 16) 31 = Ok false
  /\ is_flag_set (mkBits [64; 0] 16) 1 = Ok true.
Proof. repeat split. Qed.

(* wherever the pinned code returns, the repaired code returns the same *)
Theorem is_flag_set_repair_conservative f i b : is_flag_set_orig f i = Ok b -> is_flag_set f i = Ok b.
Proof.
  intros H. unfold is_flag_set.
  destruct (Z.ltb_spec i 0) as [Hn | Hn]; cbn [orb].
  - (* negative i: either the index is negative (panic) or the mask is 0 *)
    unfold is_flag_set_orig, gindex in H.
    destruct (Z.leb_spec 0 (byte_ix i)) as [Hb | Hb]; [|discriminate].
    destruct (nth_error (bs_bytes f) (Z.to_nat (byte_ix i))); [|discriminate].
    cbn [bind] in H. unfold bit_mask in H.
    assert (Hq : byte_ix i <= 0).
    { unfold byte_ix. replace i with (- (- i)) by lia. rewrite Z.quot_opp_l by lia.
      pose proof (Z.quot_pos (- i) 8 ltac:(lia) ltac:(lia)). lia. }
    assert (E : byte_ix i = 0) by lia. rewrite E in H.
    destruct (Z.ltb_spec (7 - (i - 8 * 0)) 8); [lia|].
    rewrite Z.land_0_r in H. inversion H. reflexivity.
  - destruct (Z.leb_spec (zlen (bs_bytes f)) (byte_ix i)) as [Hs | Hs]; [|exact H].
    unfold is_flag_set_orig in H. rewrite byte_ix_nonneg in * by assumption.
    assert (0 <= i / 8) by (apply Z.div_pos; lia).
    rewrite gindex_nth, nth_error_out in H by assumption. discriminate.
Qed.

Lemma nth_error_repeatz n k x : nth_error (repeatz 0 n) k = Some x -> x = 0.
Proof.
  revert k. induction n; intros k H; [destruct k; discriminate|].
  destruct k; [inversion H; reflexivity | simpl in H; eauto].
Qed.

Lemma rfc_bit_app_zeros bs n j : 0 <= j ->
  bit_or_false (rfc_bit (bs ++ repeatz 0 n) j) = bit_or_false (rfc_bit bs j).
Proof.
  intros Hj. unfold rfc_bit.
  destruct (Nat.lt_ge_cases (Z.to_nat (j / 8)) (length bs)) as [L | L].
  - rewrite nth_error_app1 by assumption. reflexivity.
  - rewrite nth_error_app2 by assumption. rewrite (proj2 (nth_error_None bs _)) by assumption.
    destruct (nth_error (repeatz 0 n) (Z.to_nat (j / 8) - length bs)) eqn:E; [|reflexivity].
    apply nth_error_repeatz in E. subst. cbn [bit_or_false]. apply Z.bits_0.
Qed.

(* appending the padding never changes what IsFlagSet reports: flag i keeps its number *)
Theorem pad4_preserves_flags f j : 0 <= j -> is_flag_set (pad4 f) j = is_flag_set f j.
Proof. intros. rewrite !is_flag_set_spec by assumption. rewrite pad4_bytes, rfc_bit_app_zeros by assumption. reflexivity. Qed.

Theorem kdc_options_widen_preserves_flags f j :
  0 <= j -> is_flag_set (kdc_options_widen f) j = is_flag_set f j /\
            (4 <= length (bs_bytes (kdc_options_widen f)))%nat.
Proof.
  intros Hj. unfold kdc_options_widen. destruct (Nat.ltb_spec (length (bs_bytes f)) 4).
  - split.
    + rewrite !is_flag_set_spec by assumption. cbn [bs_bytes]. rewrite rfc_bit_app_zeros by assumption. reflexivity.
    + cbn [bs_bytes]. rewrite app_length, repeatz_length. lia.
  - split; [reflexivity | lia].
Qed.

(* the pinned tree prepended the padding: a one-octet word with forwardable (bit 1) set reads as bit 25 *)
Example pad4_front_moves_flags :
  let f := mkBits [64] 8 in
  is_flag_set f 1 = Ok true /\ is_flag_set (pad4_front f) 1 = Ok false /\ is_flag_set (pad4_front f) 25 = Ok true /\ is_flag_set (kdc_options_widen f) 1 = Ok true /\ is_flag_set (kdc_options_widen f) 25 = Ok false.
Proof. repeat split. Qed.

Lemma rfc_bit_update l l' i g :
  0 <= i -> upd_nat l (Z.to_nat (i / 8)) g = Some l' ->
  forall j, 0 <= j ->
    rfc_bit l' j = if (j / 8 =? i / 8) then option_map (fun x => Z.testbit (g x) (7 - j mod 8)) (nth_error l (Z.to_nat (i / 8)))
                   else rfc_bit l j.
Proof.
  intros Hi H j Hj. destruct (upd_nat_spec _ _ _ _ H) as [_ HN]. unfold rfc_bit. rewrite HN.
  assert (0 <= i / 8) by (apply Z.div_pos; lia). assert (0 <= j / 8) by (apply Z.div_pos; lia).
  destruct (Z.eqb_spec (j / 8) (i / 8)) as [E | E].
  - rewrite E, Nat.eqb_refl. destruct (nth_error l (Z.to_nat (i / 8))); reflexivity.
  - destruct (Nat.eqb_spec (Z.to_nat (j / 8)) (Z.to_nat (i / 8))); [lia | reflexivity].
Qed.

Lemma same_byte_other_bit i j : j / 8 = i / 8 -> j <> i -> 7 - i mod 8 <> 7 - j mod 8.
Proof. intros E N. pose proof (Z.div_mod i 8 ltac:(lia)). pose proof (Z.div_mod j 8 ltac:(lia)). lia. Qed.

(* SetFlag and UnsetFlag apply a bit operation G with the mask of flag i to octet i/8 of the padded word; all that
   matters of G is that it forces the masked bit to nb, leaves the other bits alone and keeps an octet an octet *)
Lemma update_flag_spec (G : Z -> Z -> Z) (nb : bool) f i :
  (forall x p q, 0 <= p -> 0 <= q -> Z.testbit (G x (2 ^ p)) q = if p =? q then nb else Z.testbit x q) ->
  (forall x p, 0 <= p < 8 -> 0 <= x < 256 -> 0 <= G x (2 ^ p) < 256) ->
  wf_bytes (bs_bytes f) -> 0 <= i < 8 * zlen (bs_bytes (pad4 f)) ->
  exists bs, update_at (bs_bytes (pad4 f)) (byte_ix i) (fun x => G x (bit_mask i)) = Ok bs /\
    length bs = Nat.max 4 (length (bs_bytes f)) /\ wf_bytes bs /\ rfc_bit bs i = Some nb /\
    forall j, 0 <= j -> j <> i -> rfc_bit bs j = rfc_bit (bs_bytes (pad4 f)) j.
Proof.
  intros HG HGb Hwf Hi. set (P := bs_bytes (pad4 f)) in *.
  assert (H8 : 0 <= i / 8 < zlen P) by (split; [apply Z.div_pos; lia | apply Z.div_lt_upper_bound; lia]).
  pose proof (Z.mod_pos_bound i 8 ltac:(lia)) as Hm.
  rewrite byte_ix_nonneg, update_at_nth, bit_mask_nonneg by lia.
  destruct (upd_nat_some P (Z.to_nat (i / 8)) (fun x => G x (2 ^ (7 - i mod 8))) ltac:(unfold zlen in H8; lia)) as [bs E].
  rewrite E. exists bs. destruct (upd_nat_spec _ _ _ _ E) as [HL _].
  destruct (nth_error P (Z.to_nat (i / 8))) as [x|] eqn:EX; [|apply nth_error_None in EX; unfold zlen in H8; lia].
  split; [reflexivity|]. split; [rewrite HL; apply pad4_length|].
  split; [eapply upd_nat_wf; [apply pad4_wf, Hwf | | exact E]; intros y Hy; apply HGb; lia|].
  split.
  - rewrite (rfc_bit_update _ _ i _ ltac:(lia) E i ltac:(lia)), Z.eqb_refl, EX. cbn [option_map].
    rewrite HG, Z.eqb_refl by lia. reflexivity.
  - intros j Hj Hne. rewrite (rfc_bit_update _ _ i _ ltac:(lia) E j Hj).
    destruct (Z.eqb_spec (j / 8) (i / 8)) as [E8 | E8]; [|reflexivity].
    rewrite EX. cbn [option_map]. unfold rfc_bit. rewrite E8, EX.
    pose proof (Z.mod_pos_bound j 8 ltac:(lia)). rewrite HG by lia.
    destruct (Z.eqb_spec (7 - i mod 8) (7 - j mod 8)) as [E7 | E7]; [|reflexivity].
    exfalso. revert E7. apply same_byte_other_bit; assumption.
Qed.

Section SetUnset.
  Variables (f : bitstring) (i : Z).
  Hypothesis Hwf : wf_bytes (bs_bytes f).
  Hypothesis Hi : 0 <= i < 8 * zlen (bs_bytes (pad4 f)).     (* i < 32, or i < 8*len for longer words *)

  (* SetFlag: bit i (= bit 7 - i mod 8 of octet i/8) becomes 1, every other bit of the padded word is unchanged,
     the length is max(4, len), bytes stay bytes, and IsFlagSet then reports i as set *)
  Theorem flag_bit_numbering :
    exists f', set_flag f i = Ok f' /\
      length (bs_bytes f') = Nat.max 4 (length (bs_bytes f)) /\
      wf_bytes (bs_bytes f') /\
      bs_bitlen f' = (if (length (bs_bytes f) <? 4)%nat then 32 else bs_bitlen f) /\
      rfc_bit (bs_bytes f') i = Some true /\
      (forall j, 0 <= j -> j <> i -> rfc_bit (bs_bytes f') j = rfc_bit (bs_bytes (pad4 f)) j) /\
      is_flag_set f' i = Ok true /\
      (forall j, 0 <= j -> j <> i -> is_flag_set f' j = is_flag_set (pad4 f) j).
  Proof.
    destruct (update_flag_spec Z.lor true f i lor_pow2_bit (fun x p Hp Hx => proj1 (byte_bits_bound x p Hp Hx)) Hwf Hi)
      as (bs & E & HL & Hw & Hbit & Hoth).
    exists (mkBits bs (bs_bitlen (pad4 f))). unfold set_flag. rewrite E. cbn [bind bs_bytes bs_bitlen].
    split; [reflexivity|]. split; [exact HL|]. split; [exact Hw|]. split; [apply pad4_bitlen|].
    split; [exact Hbit|]. split; [exact Hoth|].
    split.
    - rewrite is_flag_set_spec by lia. cbn [bs_bytes]. rewrite Hbit. reflexivity.
    - intros j Hj Hne. rewrite !is_flag_set_spec by lia. cbn [bs_bytes]. rewrite Hoth by assumption. reflexivity.
  Qed.

  Theorem unset_flag_bit :
    exists f', unset_flag f i = Ok f' /\
      length (bs_bytes f') = Nat.max 4 (length (bs_bytes f)) /\
      wf_bytes (bs_bytes f') /\
      rfc_bit (bs_bytes f') i = Some false /\
      (forall j, 0 <= j -> j <> i -> rfc_bit (bs_bytes f') j = rfc_bit (bs_bytes (pad4 f)) j) /\
      is_flag_set f' i = Ok false.
  Proof.
    destruct (update_flag_spec Z.ldiff false f i ldiff_pow2_bit (fun x p Hp Hx => proj2 (byte_bits_bound x p Hp Hx)) Hwf Hi)
      as (bs & E & HL & Hw & Hbit & Hoth).
    exists (mkBits bs (bs_bitlen (pad4 f))). unfold unset_flag. rewrite E. cbn [bind bs_bytes bs_bitlen].
    split; [reflexivity|]. split; [exact HL|]. split; [exact Hw|]. split; [exact Hbit|]. split; [exact Hoth|].
    rewrite is_flag_set_spec by lia. cbn [bs_bytes]. rewrite Hbit. reflexivity.
  Qed.
End SetUnset.

(* SetFlag / UnsetFlag beyond the (padded) word: index out of range *)
Theorem set_flag_out_of_range_panics f i :
  8 * zlen (bs_bytes (pad4 f)) <= i -> set_flag f i = Panic site_flag_index /\ unset_flag f i = Panic site_flag_index.
Proof.
  intros H. pose proof (zlen_nonneg (bs_bytes (pad4 f))).
  assert (zlen (bs_bytes (pad4 f)) <= i / 8) by (apply Z.div_le_lower_bound; lia).
  unfold set_flag, unset_flag. rewrite byte_ix_nonneg, !update_at_nth by lia.
  rewrite !upd_nat_none by (unfold zlen in *; lia). split; reflexivity.
Qed.

(* the hypotheses are satisfiable: flag 1 (forwardable) on an empty word, flag 31 on a 4-byte word *)
Example flag_ex1 : set_flag (mkBits [] 0) 1 = Ok (mkBits [64; 0; 0; 0] 32).
Proof. reflexivity. Qed.
Example flag_ex2 : set_flag (mkBits [0; 0; 0; 0] 32) 31 = Ok (mkBits [0; 0; 0; 1] 32).
Proof. reflexivity. Qed.
Example flag_ex3 : unset_flag (mkBits [255; 255; 255; 255] 32) 8 = Ok (mkBits [255; 127; 255; 255] 32).
Proof. reflexivity. Qed.
Example flag_ex4 : set_flag (mkBits [0; 0; 0; 0] 32) 32 = Panic site_flag_index.
Proof. reflexivity. Qed.
