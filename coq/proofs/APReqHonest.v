(* Completeness of the service side, end to end: an honestly built AP-REQ is accepted, from the wire bytes (RFC 4120
   DER, model/APReqBytes.v) through the crypto model (the ticket sealed by the KDC under the service key with usage 2,
   the authenticator sealed by the client under the session key) to the decision core (model/APReq.v); presented a
   second time it is refused as a replay (KRB_AP_ERR_REPEAT = 34).  From the message round trip of CryptoRoundTrip.v,
   verify_apreq_bytes_refines_der and apreq_accept_iff. *)
From Gokrb5.lib Require Import Bytes JV.
From Gokrb5.model Require Import Keytab Crypto Replay Schema DER DERCodec RFCSchemas GoASN1 APReq APReqBytes.
From Gokrb5.proofs Require Import ReplayProofs CryptoRoundTrip DERBasic DERProofs APReqProofs APReqBytesProofs.

(* the confounder length is Crypto.conf_len: 16 for the AES profiles, 8 for des3 (16) and rc4 (23) *)
Lemma conf_len_values :
  conf_len 17 = 16%nat /\ conf_len 18 = 16%nat /\ conf_len 19 = 16%nat /\ conf_len 20 = 16%nat /\
  conf_len 16 = 8%nat /\ conf_len 23 = 8%nat.
Proof. repeat split; reflexivity. Qed.

(* ct is an encryption of msg under (et, key, usage) for some confounder of the profile's length *)
Definition sealed (et : Z) (key : bytes) (usage : Z) (msg ct : bytes) : Prop :=
  exists conf, length conf = conf_len et /\ wf_bytes conf /\ encrypt_with et key usage conf msg = Ok ct.

(* what the round-trip theorems ask of the key: a byte string for AES (its length is checked by encrypt_with itself),
   16 octets for rc4 (decrypt checks it, encrypt_with does not), nothing for des3 *)
Definition key_ok (et : Z) (key : bytes) : Prop :=
  match et_family et with
  | Some FAesSha1 | Some FAesSha2 => wf_bytes key
  | Some FRc4 => length key = 16%nat
  | Some FDes3 | None => True
  end.

Lemma sealed_family et key usage msg ct : sealed et key usage msg ct -> et_family et <> None.
Proof. intros (conf & _ & _ & E) F. unfold encrypt_with in E. rewrite F in E. discriminate. Qed.

(* what is sealed opens: the plaintext comes back, followed for des3 by the zero padding RFC 3961 prescribes.
   (No hypothesis that et is a known etype: an unknown one seals nothing.) *)
Lemma sealed_decrypt et key usage msg ct :
  key_ok et key -> wf_bytes msg -> sealed et key usage msg ct ->
  exists pad, decrypt et key usage ct = Ok (msg ++ pad).
Proof.
  intros Hk Hm (conf & Hl & Hc & E). eexists. exact (encrypt_with_decrypt et key usage conf msg ct Hl Hc Hm Hk E).
Qed.

Lemma schema_ok_EncTicketPart : schema_ok rfc_EncTicketPart = true. Proof. vm_compute. reflexivity. Qed.
Lemma schema_ok_Authenticator : schema_ok rfc_Authenticator = true. Proof. vm_compute. reflexivity. Qed.

Section Honest.
  Variables (st : settings) (kt : list entry) (tk : ticket) (aet : Z) (ac wire rest : bytes)
            (et : enc_ticket) (au : authenticator) (ept apt0 kv : bytes) (ktype kvno : Z).
  (* the AP-REQ on the wire is the RFC 4120 DER encoding of (ticket, authenticator etype, authenticator cipher) *)
  Hypothesis Hwf : wf_apreq tk aet ac = true.
  Hypothesis Hwire : encode rfc_APReq (inject_apreq tk aet ac) = Some wire.
  Hypothesis Hwlen : zlen wire < 2 ^ 31.
  (* ept / apt0 are the DER encodings of the EncTicketPart et and of the Authenticator au *)
  Hypothesis Hwet : wf_enc_ticket et = true.
  Hypothesis Hept : encode rfc_EncTicketPart (inject_enc_ticket et) = Some ept.
  Hypothesis Heptlen : zlen ept < 2 ^ 31.
  Hypothesis Hwau : wf_authenticator au = true.
  Hypothesis Hapt : encode rfc_Authenticator (inject_authenticator au) = Some apt0.
  Hypothesis Haptlen : zlen apt0 < 2 ^ 31.
  (* the service's keytab holds the key the KDC sealed the ticket with (usage 2) *)
  Hypothesis Hkey : get_key kt (eff_sname st tk)
                            (tk_realm tk) (tk_kvno tk) (tk_etype tk) = Ok (kv, ktype, kvno).
  Hypothesis Hkok : key_ok ktype kv.
  Hypothesis Hsealt : sealed ktype kv 2 ept (tk_cipher tk).
  (* the client sealed the authenticator under the session key of the ticket *)
  Hypothesis Hsok : key_ok (et_keytype et) (et_key et).
  Hypothesis Hseala : sealed (et_keytype et) (et_key et) (auth_usage (tk_sname tk)) apt0 ac.

  (* the authenticator the replay cache remembers, the identity reported *)
  Let a := mkAuth (join_slash (au_cname au)) (us (au_ctime au) + au_cusec au) (eff_sname st tk).
  Let id := mkIdentity (join_slash (et_cname et)) (et_crealm et) (et_cname et) (et_end et).
  (* the conditions of RFC 4120 3.2.3 on times (at the time t of presentation), flags, addresses and names *)
  Let conditions (t : Z) : Prop :=
    match et_start et with Some s => us s - t <= st_skew st | None => True end /\
    flag_invalid (et_flags et) = false /\ t - us (et_end et) <= st_skew st /\
    (et_caddr et = [] \/ In (st_caddr st) (et_caddr et)) /\
    (st_require_addr st = true -> et_caddr et <> []) /\
    au_cname au = et_cname et /\ au_crealm au = et_crealm et /\
    Z.abs (t - (us (au_ctime au) + au_cusec au)) <= st_skew st.

  Lemma honest_opens :
    exists pad apad,
      decrypt ktype kv 2 (tk_cipher tk) = Ok (ept ++ pad) /\
      decrypt (et_keytype et) (et_key et) (auth_usage (tk_sname tk)) ac = Ok (apt0 ++ apad).
  Proof.
    assert (We : wf_bytes ept) by (apply (encode_wf_bytes _ _ _ schema_ok_EncTicketPart Hept); lia).
    assert (Wa : wf_bytes apt0) by (apply (encode_wf_bytes _ _ _ schema_ok_Authenticator Hapt); lia).
    destruct (sealed_decrypt _ _ _ _ _ Hkok We Hsealt) as [pad Hd].
    destruct (sealed_decrypt _ _ _ _ _ Hsok Wa Hseala) as [apad Hda]. eauto.
  Qed.

  Lemma honest_refines t rc :
    verify_apreq_bytes st kt t rc (wire ++ rest) =
    verify_apreq (fun _ => Some et) (fun _ => Some au) st kt t rc tk aet ac.
  Proof.
    destruct honest_opens as (pad & apad & Hd & Hda).
    apply (verify_apreq_bytes_refines_der st kt t rc tk aet ac wire rest et au ept pad apt0 apad); auto.
    - intros kv' ktype' kvno' pt Ek Ed. fold (eff_sname st tk) in Ek. rewrite Hkey in Ek. injection Ek as <- <- <-. congruence.
    - intros apt Ea. congruence.
  Qed.

  (* the sealed-content model finds the request valid: the conjunction of C01 *)
  Lemma honest_valid t rc :
    conditions t -> ~ In a rc -> rfc_valid (fun _ => Some et) (fun _ => Some au) st kt t rc tk ac id (a :: rc).
  Proof.
    intros (HS & EFI & HE & HA & HR & ECN & ECR & HSK) HRC. destruct honest_opens as (pad & apad & Hd & Hda).
    exists kv, ktype, kvno, (ept ++ pad), et, (apt0 ++ apad), au. cbv zeta. repeat split; auto.
  Qed.

  Theorem honest_apreq_accepted t rc :
    conditions t -> ~ In a rc -> verify_apreq_bytes st kt t rc (wire ++ rest) = (Accept id, a :: rc).
  Proof. intros Hc HRC. rewrite honest_refines. apply apreq_accept_iff, honest_valid; assumption. Qed.

  (* ... and whenever its authenticator is already in the replay cache it is refused with KRB_AP_ERR_REPEAT (34) and
     the cache stays as it is *)
  Theorem honest_apreq_replayed t rc :
    conditions t -> In a rc -> verify_apreq_bytes st kt t rc (wire ++ rest) = (Reject 34, rc).
  Proof.
    intros Hc HRC. rewrite honest_refines.
    apply (apreq_replay_rejected _ _ st kt t rc tk aet ac id a); [|exact HRC]. apply honest_valid; [exact Hc | intros []].
  Qed.

  (* the same wire presented again: first at time t against the cache rc, then at any time t' at which the conditions
     still hold, against the cache the first presentation left behind: KRB_AP_ERR_REPEAT, and that cache is kept *)
  Corollary honest_apreq_then_replay_rejected t t' rc :
    conditions t -> ~ In a rc -> conditions t' ->
    let first := verify_apreq_bytes st kt t rc (wire ++ rest) in
    snd first = a :: rc /\ verify_apreq_bytes st kt t' (snd first) (wire ++ rest) = (Reject 34, a :: rc).
  Proof.
    intros Hc HRC Hc'. cbv zeta. rewrite (honest_apreq_accepted t rc Hc HRC). cbn [snd].
    split; [reflexivity|]. apply honest_apreq_replayed; [exact Hc' | left; reflexivity].
  Qed.
End Honest.

(* sealed / key_ok / sealed_decrypt on concrete values: aes128-cts-hmac-sha1-96 (17) and rc4-hmac (23) *)
Example ex_sealed_17 :
  let key := repeatz 7 16 in let conf := repeatz 1 16 in let msg := [104; 105] in
  key_ok 17 key /\ wf_bytes msg /\
  match encrypt_with 17 key 2 conf msg with
  | Ok ct => sealed 17 key 2 msg ct /\ decrypt 17 key 2 ct = Ok msg
  | _ => False
  end.
Proof.
  cbv zeta.
  assert (K : wf_bytes (repeatz 7 16)) by (apply wf_bytesb_iff; reflexivity).
  assert (C : wf_bytes (repeatz 1 16)) by (apply wf_bytesb_iff; reflexivity).
  assert (M : wf_bytes [104; 105]) by (apply wf_bytesb_iff; reflexivity).
  assert (E : exists ct, encrypt_with 17 (repeatz 7 16) 2 (repeatz 1 16) [104; 105] = Ok ct)
    by (vm_compute; eexists; reflexivity).
  destruct E as [ct E]. rewrite E. split; [exact K|]. split; [exact M|]. split.
  - exists (repeatz 1 16). auto.
  - exact (encrypt_with_decrypt 17 (repeatz 7 16) 2 (repeatz 1 16) [104; 105] ct eq_refl C M K E).
Qed.

Example ex_sealed_23 :
  key_ok 23 ex_svc_key /\ sealed 23 ex_svc_key 2 ex_pt (tk_cipher ex_tk) /\
  key_ok 23 ex_session /\ sealed 23 ex_session 11 ex_apt ex_ac.
Proof.
  split; [reflexivity|]. split.
  - exists ex_conf. split; [reflexivity|]. split; [apply wf_bytesb_iff; vm_compute; reflexivity|].
    vm_compute. reflexivity.
  - split; [reflexivity|]. exists ex_conf. split; [reflexivity|].
    split; [apply wf_bytesb_iff; vm_compute; reflexivity|]. vm_compute. reflexivity.
Qed.

(* every hypothesis of honest_apreq_accepted holds of the rc4-hmac request of APReqBytesProofs.v (really sealed, 403
   octets on the wire): the conclusion is obtained from the theorem *)
Example ex_honest_accepted :
  verify_apreq_bytes ex_st ex_kt ex_now [] (ex_wire ++ [0; 0]) =
  (Accept (mkIdentity ex_user ex_realm [ex_user] 1700036000), [mkAuth ex_user 1700000100123456 ex_sname]).
Proof.
  destruct ex_sealed_23 as (K1 & S1 & K2 & S2). destruct ex_encodings as (E1 & E2 & E3 & L3).
  destruct (proj1 (pair_equal_spec _ _ _ _) ex_wellformed) as [W _].
  destruct (proj1 (pair_equal_spec _ _ _ _) W) as [W' W3]. destruct (proj1 (pair_equal_spec _ _ _ _) W') as [W1 W2].
  apply (honest_apreq_accepted ex_st ex_kt ex_tk 23 ex_ac ex_wire [0; 0] ex_et ex_au ex_pt ex_apt ex_svc_key 23 3
           W3 E3); try assumption.
  - rewrite L3. reflexivity.
  - vm_compute. reflexivity.
  - vm_compute. reflexivity.
  - vm_compute. reflexivity.
  - split; [vm_compute; discriminate|]. split; [reflexivity|]. split; [vm_compute; discriminate|].
    split; [right; left; reflexivity|]. split; [discriminate|]. split; [reflexivity|]. split; [reflexivity|].
    vm_compute. discriminate.
  - intros [].
Qed.

(* and presented again one second later against the cache it left: KRB_AP_ERR_REPEAT *)
Example ex_honest_replayed :
  verify_apreq_bytes ex_st ex_kt (ex_now + 1000000) [mkAuth ex_user 1700000100123456 ex_sname] (ex_wire ++ [0; 0]) =
  (Reject 34, [mkAuth ex_user 1700000100123456 ex_sname]).
Proof. vm_compute. reflexivity. Qed.
