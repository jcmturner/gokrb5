(* RFC 4121 token layout, decode/encode round trip, injectivity of the signed data, verification. *)
From Gokrb5.lib Require Import Bytes JV.
From Gokrb5.model Require Import GSSToken.

Lemma zeros_length n : length (zeros n) = n.
Proof. unfold zeros; induction n; cbn; auto. Qed.

Lemma zeros_add n m : zeros (n + m) = zeros n ++ zeros m.
Proof. unfold zeros; induction n; cbn; [reflexivity|now rewrite IHn]. Qed.

Lemma skipn_zeros k n : skipn k (zeros n) = zeros (n - k).
Proof.
  unfold zeros; revert k; induction n as [|n IH]; intros [|k]; cbn; auto.
Qed.

Lemma copy_zeros_step pre src n off :
  off = length pre -> (length src <= n)%nat ->
  copy_at (pre ++ zeros n) off src = (pre ++ src) ++ zeros (n - length src).
Proof.
  intros -> Hn. unfold copy_at. rewrite app_length, zeros_length.
  replace (length pre + n - length pre)%nat with n by lia.
  rewrite Nat.min_r by lia.
  rewrite firstn_app_exact, firstn_all.
  rewrite skipn_app, skipn_all2 by lia.
  replace (length pre + length src - length pre)%nat with (length src) by lia.
  rewrite skipn_zeros. cbn [app]. now rewrite <- app_assoc.
Qed.

Lemma copy_zeros_first src n :
  (length src <= n)%nat -> copy_at (zeros n) 0 src = src ++ zeros (n - length src).
Proof. intros Hn. change (zeros n) with ([] ++ zeros n). now rewrite copy_zeros_step. Qed.

(* Go's Marshal functions write consecutive fields into a zeroed buffer: the first write is copy_zeros_first,
   every later one copy_zeros_step at the offset reached so far, which the side conditions check *)
Ltac write_fields :=
  rewrite copy_zeros_first by (rewrite ?be_bytes_length; cbn [length]; lia);
  repeat rewrite copy_zeros_step by (rewrite ?app_length, ?be_bytes_length; cbn [length]; lia).

Lemma wrap8 x : 0 <= x < 256 -> wrap 8 x = x.
Proof. intros H. unfold wrap. change (2 ^ 8) with 256. apply Z.mod_small, H. Qed.

Definition wf_wrap (t : wrap_token) : Prop :=
  0 <= wt_flags t < 256 /\ wt_ec t = zlen (wt_cksum t) /\ wt_ec t < 2 ^ 16 /\
  0 <= wt_rrc t < 2 ^ 16 /\ 0 <= wt_seq t < 2 ^ 64.

Definition wrap_hdr (t : wrap_token) : bytes :=
  [5; 4; wt_flags t; 255] ++ be_bytes 2 (wt_ec t) ++ be_bytes 2 (wt_rrc t) ++ be_bytes 8 (wt_seq t).

Lemma wrap_hdr_length t : length (wrap_hdr t) = 16%nat.
Proof. unfold wrap_hdr. rewrite !app_length, !be_bytes_length. reflexivity. Qed.

Lemma wrap_layout_hdr t : wrap_layout t = wrap_hdr t ++ wt_payload t ++ wt_cksum t.
Proof. unfold wrap_layout, wrap_hdr. now rewrite <- !app_assoc. Qed.

(* Marshal produces exactly the RFC 4121 4.2.6.2 layout *)
Theorem wrap_marshal_layout t : wf_wrap t -> wrap_marshal t = wrap_layout t.
Proof.
  intros (Hf & Hec & Hec16 & Hrrc & Hseq). unfold wrap_marshal.
  assert (Z.to_nat (wt_ec t) = length (wt_cksum t)) as -> by (rewrite Hec; unfold zlen; apply Nat2Z.id).
  write_fields.
  rewrite !be_bytes_length. cbn [length].
  match goal with |- _ ++ zeros ?n = _ => replace n with 0%nat by lia end.
  cbn [zeros repeatz]. rewrite app_nil_r, wrap8 by exact Hf.
  unfold wrap_layout. cbn [app]. rewrite <- !app_assoc. reflexivity.
Qed.

Definition wrap_from_acceptor (t : wrap_token) : bool := Z.land (wt_flags t) 1 =? 1.

Lemma wrap_layout_fields t :
  slice (wrap_layout t) 0 2 = [5; 4] /\ nth 2 (wrap_layout t) 0 = wt_flags t /\ nth 3 (wrap_layout t) 0 = 255 /\
  slice (wrap_layout t) 4 6 = be_bytes 2 (wt_ec t) /\ slice (wrap_layout t) 6 8 = be_bytes 2 (wt_rrc t) /\
  slice (wrap_layout t) 8 16 = be_bytes 8 (wt_seq t).
Proof. repeat split. Qed.

Theorem wrap_unmarshal_marshal t :
  wf_wrap t -> wrap_unmarshal (wrap_marshal t) (wrap_from_acceptor t) = Ok t.
Proof.
  intros Hwf. rewrite wrap_marshal_layout by assumption.
  destruct Hwf as (Hf & Hec & Hec16 & Hrrc & Hseq).
  pose proof (zlen_nonneg (wt_cksum t)) as Hc0. pose proof (zlen_nonneg (wt_payload t)) as Hp0.
  assert (Hh : zlen (wrap_hdr t) = 16) by (unfold zlen; now rewrite wrap_hdr_length).
  assert (Hlen : zlen (wrap_layout t) = 16 + zlen (wt_payload t) + zlen (wt_cksum t))
    by (rewrite wrap_layout_hdr, !zlen_app; lia).
  destruct (wrap_layout_fields t) as (F0 & F2 & F3 & F4 & F6 & F8).
  unfold wrap_unmarshal. rewrite F0, F2, F3, F4, F6, F8, Hlen.
  rewrite !be_val_be_bytes_small by (change (256 ^ Z.of_nat 2) with (2 ^ 16); change (256 ^ Z.of_nat 8) with (2 ^ 64); lia).
  destruct (Nat.ltb_spec (length (wrap_layout t)) 16) as [Hlt|_]; [unfold zlen in Hlen; lia|].
  cbn [beq_bytes Z.eqb Pos.eqb andb negb]. fold (wrap_from_acceptor t).
  assert (wrap_from_acceptor t && negb (wrap_from_acceptor t) = false) as -> by apply andb_negb_r.
  assert (negb (wrap_from_acceptor t) && wrap_from_acceptor t = false) as -> by apply andb_negb_l.
  destruct (Z.ltb_spec (16 + zlen (wt_payload t) + zlen (wt_cksum t) - 16) (wt_ec t)); [lia|].
  rewrite wrap_layout_hdr.
  rewrite (slice_mid (wrap_hdr t) (wt_payload t) (wt_cksum t)) by lia.
  rewrite (app_assoc (wrap_hdr t)), (slice_suffix (wrap_hdr t ++ wt_payload t) (wt_cksum t))
    by (rewrite ?zlen_app; lia).
  destruct t; reflexivity.
Qed.

(* hence Marshal is injective on well-formed tokens (same direction flag follows from same flags) *)
Corollary wrap_marshal_injective t1 t2 :
  wf_wrap t1 -> wf_wrap t2 -> wrap_marshal t1 = wrap_marshal t2 -> t1 = t2.
Proof.
  intros H1 H2 E.
  pose proof (wrap_unmarshal_marshal t1 H1) as U1. pose proof (wrap_unmarshal_marshal t2 H2) as U2.
  assert (wt_flags t1 = wt_flags t2) as Ef.
  { rewrite !wrap_marshal_layout in E by assumption. unfold wrap_layout in E. cbn in E. congruence. }
  unfold wrap_from_acceptor in *. rewrite E, Ef, U2 in U1. congruence.
Qed.

Theorem wrap_unmarshal_rejects b acc :
  (length b < 16)%nat \/ slice b 0 2 <> [5; 4] \/ nth 3 b 0 <> 255 \/
  (Z.land (nth 2 b 0) 1 =? 1) <> acc \/ zlen b - 16 < be_val (slice b 4 6) ->
  exists c, wrap_unmarshal b acc = Err c.
Proof.
  intros H. unfold wrap_unmarshal.
  destruct (Nat.ltb_spec (length b) 16); [eauto|].
  destruct (beq_bytes (slice b 0 2) [5; 4]) eqn:Eid; cbn [negb]; [|eauto].
  apply beq_bytes_eq in Eid.
  destruct (Z.land (nth 2 b 0) 1 =? 1) eqn:Ea, acc; cbn [andb negb]; eauto.
  all: destruct (Z.eqb_spec (nth 3 b 0) 255); cbn [negb]; eauto.
  all: destruct (Z.ltb_spec (zlen b - 16) (be_val (slice b 4 6))); eauto.
  all: exfalso; destruct H as [H|[H|[H|[H|H]]]]; try lia; congruence.
Qed.

(* the data the checksum covers is { payload | header with EC and RRC zeroed } as RFC 4121 4.2.4 says *)
Lemma wrap_cksum_header_spec flags seq : 0 <= flags < 256 ->
  wrap_cksum_header flags seq = [5; 4; flags; 255; 0; 0; 0; 0] ++ be_bytes 8 seq.
Proof.
  intros Hf. unfold wrap_cksum_header. write_fields.
  rewrite be_bytes_length. cbn [length Nat.sub zeros repeatz app]. now rewrite app_nil_r, wrap8.
Qed.

Lemma payload_then_header (payload hdr : bytes) : length hdr = 16%nat ->
  copy_at (copy_at (zeros (16 + length payload)) 0 payload) (length payload) hdr = payload ++ hdr.
Proof.
  intros Hh. write_fields. rewrite Hh.
  replace (16 + length payload - length payload - 16)%nat with 0%nat by lia. apply app_nil_r.
Qed.

Theorem wrap_cksum_input_spec t :
  0 <= wt_flags t < 256 -> wrap_cksum_input t = wrap_signed_data t.
Proof.
  intros Hf. unfold wrap_cksum_input, wrap_signed_data. rewrite <- wrap_cksum_header_spec by assumption.
  apply payload_then_header. rewrite wrap_cksum_header_spec, app_length, be_bytes_length by assumption. reflexivity.
Qed.

(* every field except RRC and EC is bound by the checksum: the signed data determines them *)
Lemma signed_data_inj (p1 p2 h1 h2 : bytes) s1 s2 :
  length h1 = length h2 -> 0 <= s1 < 2 ^ 64 -> 0 <= s2 < 2 ^ 64 ->
  p1 ++ h1 ++ be_bytes 8 s1 = p2 ++ h2 ++ be_bytes 8 s2 -> p1 = p2 /\ h1 = h2 /\ s1 = s2.
Proof.
  intros Hl H1 H2 E.
  apply app_inv_tail_len in E; [|rewrite !app_length, !be_bytes_length, Hl; reflexivity].
  destruct E as [Ep Eh]. split; [exact Ep|].
  apply app_inv_tail_len in Eh; [|rewrite !be_bytes_length; reflexivity].
  destruct Eh as [Eh Es]. split; [exact Eh|]. apply (be_bytes_inj 8); auto.
Qed.

Theorem wrap_signed_data_injective t1 t2 :
  0 <= wt_seq t1 < 2 ^ 64 -> 0 <= wt_seq t2 < 2 ^ 64 ->
  wrap_signed_data t1 = wrap_signed_data t2 ->
  wt_payload t1 = wt_payload t2 /\ wt_flags t1 = wt_flags t2 /\ wt_seq t1 = wt_seq t2.
Proof.
  intros H1 H2 E. apply signed_data_inj in E; [|reflexivity|assumption|assumption].
  destruct E as (Ep & Eh & Es). injection Eh as Ef. auto.
Qed.

Lemma verified_iff (o : option bytes) (x : bytes) :
  match o with Some c => Some (beq_bytes c x) | None => None end = Some true <-> o = Some x.
Proof.
  destruct o as [c|]; [|split; discriminate]. split.
  - intros H. injection H as H. apply beq_bytes_eq in H. now subst.
  - intros H. injection H as ->. now rewrite beq_bytes_refl.
Qed.

Section Keyed.
  Variable checksum : Z -> bytes -> Z -> bytes -> option bytes.

  Theorem wrap_verify_iff t et key usage :
    wrap_verify checksum t et key usage = Some true <->
    checksum et key usage (wrap_cksum_input t) = Some (wt_cksum t).
  Proof. apply verified_iff. Qed.

  Theorem mic_verify_iff t et key usage :
    mic_verify checksum t et key usage = Some true <->
    checksum et key usage (mic_cksum_input t) = Some (mt_cksum t).
  Proof. apply verified_iff. Qed.
End Keyed.

Definition wf_mic (t : mic_token) : Prop := 0 <= mt_flags t < 256 /\ 0 <= mt_seq t < 2 ^ 64.

Lemma mic_header_spec flags seq : 0 <= flags < 256 ->
  mic_header flags seq = [4; 4; flags; 255; 255; 255; 255; 255] ++ be_bytes 8 seq.
Proof.
  intros Hf. unfold mic_header. write_fields.
  rewrite be_bytes_length. cbn [length Nat.sub zeros repeatz app]. now rewrite app_nil_r, wrap8.
Qed.

Lemma mic_header_length flags seq : 0 <= flags < 256 -> length (mic_header flags seq) = 16%nat.
Proof. intros H. rewrite mic_header_spec by assumption. rewrite app_length, be_bytes_length. reflexivity. Qed.

Theorem mic_marshal_layout t : wf_mic t -> mic_marshal t = mic_layout t.
Proof.
  intros (Hf & Hs). unfold mic_marshal.
  pose proof (mic_header_length (mt_flags t) (mt_seq t) Hf) as Lh.
  rewrite copy_zeros_first by lia. rewrite copy_zeros_step by lia. rewrite Lh.
  replace (16 + length (mt_cksum t) - 16 - length (mt_cksum t))%nat with 0%nat by lia.
  cbn [zeros repeatz]. rewrite app_nil_r, mic_header_spec by assumption.
  unfold mic_layout. now rewrite <- app_assoc.
Qed.

Lemma mic_layout_fields t :
  slice (mic_layout t) 0 2 = [4; 4] /\ nth 2 (mic_layout t) 0 = mt_flags t /\
  slice (mic_layout t) 3 8 = [255; 255; 255; 255; 255] /\ slice (mic_layout t) 8 16 = be_bytes 8 (mt_seq t).
Proof. repeat split. Qed.

Theorem mic_unmarshal_marshal t :
  wf_mic t ->
  mic_unmarshal (mic_marshal t) (negb (Z.land (mt_flags t) 1 =? 0)) = Ok (mt_flags t, mt_seq t, mt_cksum t).
Proof.
  intros Hwf. rewrite mic_marshal_layout by assumption. destruct Hwf as (Hf & Hs).
  set (hdr := [4; 4; mt_flags t; 255; 255; 255; 255; 255] ++ be_bytes 8 (mt_seq t)).
  assert (Hh : zlen hdr = 16) by (unfold hdr; rewrite zlen_app; unfold zlen; now rewrite be_bytes_length).
  assert (El : mic_layout t = hdr ++ mt_cksum t) by (unfold mic_layout, hdr; now rewrite <- app_assoc).
  assert (Hlen : zlen (mic_layout t) = 16 + zlen (mt_cksum t)) by (rewrite El, zlen_app; lia).
  pose proof (zlen_nonneg (mt_cksum t)).
  destruct (mic_layout_fields t) as (F0 & F2 & F3 & F8).
  unfold mic_unmarshal. rewrite F0, F2, F3, F8, Hlen.
  rewrite be_val_be_bytes_small by (change (256 ^ Z.of_nat 8) with (2 ^ 64); lia).
  destruct (Nat.ltb_spec (length (mic_layout t)) 16); [unfold zlen in Hlen; lia|].
  cbn [beq_bytes Z.eqb Pos.eqb andb negb].
  rewrite andb_negb_r, andb_negb_l.
  rewrite El, (slice_suffix hdr (mt_cksum t)) by lia. reflexivity.
Qed.

Theorem mic_cksum_input_spec t :
  0 <= mt_flags t < 256 -> mic_cksum_input t = mic_signed_data t.
Proof.
  intros Hf. unfold mic_cksum_input, mic_signed_data. rewrite <- mic_header_spec by assumption.
  apply payload_then_header, mic_header_length, Hf.
Qed.

Theorem mic_signed_data_injective t1 t2 :
  0 <= mt_seq t1 < 2 ^ 64 -> 0 <= mt_seq t2 < 2 ^ 64 ->
  mic_signed_data t1 = mic_signed_data t2 ->
  mt_payload t1 = mt_payload t2 /\ mt_flags t1 = mt_flags t2 /\ mt_seq t1 = mt_seq t2.
Proof.
  intros H1 H2 E. apply signed_data_inj in E; [|reflexivity|assumption|assumption].
  destruct E as (Ep & Eh & Es). injection Eh as Ef. auto.
Qed.

Theorem mic_unmarshal_rejects b acc :
  (length b < 16)%nat \/ slice b 0 2 <> [4; 4] \/ slice b 3 8 <> [255;255;255;255;255] \/
  negb (Z.land (nth 2 b 0) 1 =? 0) <> acc ->
  exists c, mic_unmarshal b acc = Err c.
Proof.
  intros H. unfold mic_unmarshal.
  destruct (Nat.ltb_spec (length b) 16); [eauto|].
  destruct (beq_bytes (slice b 0 2) [4; 4]) eqn:Eid; cbn [negb]; [|eauto].
  apply beq_bytes_eq in Eid.
  destruct (negb (Z.land (nth 2 b 0) 1 =? 0)) eqn:Ea, acc; cbn [andb negb]; eauto.
  all: destruct (beq_bytes (slice b 3 8) [255;255;255;255;255]) eqn:Efl; cbn [negb]; eauto.
  all: apply beq_bytes_eq in Efl.
  all: exfalso; destruct H as [H|[H|[H|H]]]; try lia; congruence.
Qed.

Example wrap_example :
  let t := mkWrap 1 3 0 4294967296 [10; 20] [7; 8; 9] in
  wf_wrap t /\ wrap_marshal t = [5;4;1;255; 0;3; 0;0; 0;0;0;1;0;0;0;0; 10;20; 7;8;9].
Proof. split; [unfold wf_wrap; cbn; lia|reflexivity]. Qed.
