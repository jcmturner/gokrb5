(* Noninterference of the diagnostic encodings: if no secret is visible, two states that differ only in their
   secrets (and hidden fields) encode identically - so no encoding of a secret, raw, hex or base64, can appear. *)
From Gokrb5.lib Require Import Bytes JV.
From Gokrb5.model Require Import Diag.

Section JtyInd.
  Variable P : jty -> Prop.
  Hypothesis Hpub : P JPublic.
  Hypothesis Hsec : P JSecret.
  Hypothesis Hnil : P (JStruct []).
  Hypothesis Hcons : forall vis ft fr, P ft -> P (JStruct fr) -> P (JStruct ((vis, ft) :: fr)).
  Hypothesis Hseq : forall e, P e -> P (JSeq e).
  Fixpoint jty_field_ind (t : jty) : P t :=
    match t with
    | JPublic => Hpub
    | JSecret => Hsec
    | JStruct fs =>
      (fix go (fs : list (bool * jty)) : P (JStruct fs) :=
         match fs with
         | [] => Hnil
         | (vis, ft) :: r => Hcons vis ft r (jty_field_ind ft) (go r)
         end) fs
    | JSeq e => Hseq e (jty_field_ind e)
    end.
End JtyInd.

Theorem render_noninterference : forall t a b,
  no_secret_visible t = true -> same_public t a b -> render t a = render t b.
Proof.
  induction t as [| | |vis ft fr IHf IHr|e IH] using jty_field_ind; intros a b Hc Hs.
  - destruct a, b; cbn in *; try contradiction. now subst.
  - discriminate.
  - destruct a as [| |[|x xr]|], b as [| |[|y yr]|]; cbn in Hs; try contradiction. reflexivity.
  - destruct a as [| |[|x xr]|], b as [| |[|y yr]|]; cbn [same_public] in Hs; try contradiction.
    cbn [no_secret_visible] in Hc. apply andb_true_iff in Hc. destruct Hc as [Hc1 Hc2]. destruct Hs as [Hs1 Hs2].
    cbn [render]. f_equal.
    + destruct vis; [apply IHf; assumption|reflexivity].
    + exact (IHr (VStruct xr) (VStruct yr) Hc2 Hs2).
  - destruct a as [| | |xs], b as [| | |ys]; cbn [same_public] in Hs; try contradiction.
    cbn [render]. cbn [no_secret_visible] in Hc.
    revert ys Hs. induction xs as [|x xr IHx]; intros [|y yr] Hs; cbn in Hs; try contradiction; [reflexivity|].
    destruct Hs as [H1 H2]. cbn [flat_map]. f_equal; [apply IH; assumption|apply IHx; exact H2].
Qed.

(* the checker is also necessary: a visible secret does show *)
Example visible_secret_leaks :
  render (JStruct [(true, JPublic); (true, JSecret)]) (VStruct [VP 1; VS 42]) = [1; 42] /\
  render (JStruct [(true, JPublic); (false, JSecret)]) (VStruct [VP 1; VS 42]) = [1] /\
  no_secret_visible (JStruct [(true, JPublic); (true, JSecret)]) = false /\
  no_secret_visible (JStruct [(true, JSeq (JStruct [(false, JSecret); (true, JPublic)]))]) = true.
Proof. repeat split. Qed.
