(* Gokrb5.proofs.SchemaRefineProofs — what the computed refinement check buys: if the code's wire schema refines
   the RFC schema, every well-formed value of the code's schema is a well-formed value of the RFC schema with
   the SAME encoding; hence (with the codec's decode_encode) a decoder written from the RFC reads every encoding
   the code produces back to the same field values. *)
From Gokrb5.lib Require Import Bytes JV.
From Gokrb5.model Require Import Schema DER DERCodec SchemaRefine.
From Gokrb5.proofs Require Import DERBasic DERProofs.
From Coq Require Import String.

Local Open Scope Z_scope.

Lemma tag_eqb_eq a b : tag_eqb a b = true -> a = b.
Proof.
  destruct a, b; simpl; try discriminate; try reflexivity.
  intros H. apply Z.eqb_eq in H. subst. reflexivity.
Qed.

Definition same_enc (c : ty) : Prop :=
  forall r v, schema_refines c r = true -> wf_val c v = true -> wf_val r v = true /\ enc r v = enc c v.

Lemma same_enc_fields cs : Forall (fun f => same_enc (snd f)) cs ->
  forall rs vs, fields_refine schema_refines cs rs = true -> wf_fields wf_val cs vs = true ->
    wf_fields wf_val rs vs = true /\ enc_fields enc rs vs = enc_fields enc cs vs.
Proof.
  induction 1 as [| [[ctag copt] ct] cs Hc _ IH]; intros rs vs HR HW.
  - destruct rs; [|discriminate]. destruct vs; [|discriminate]. split; reflexivity.
  - destruct rs as [| [[rtag ropt] rt] rs]; [discriminate|].
    cbn [fields_refine] in HR. rewrite !andb_true_iff in HR. destruct HR as [[[Ht Ho] Hty] Hrest].
    apply tag_eqb_eq in Ht. subst rtag.
    destruct vs as [| o vs]; [discriminate|].
    cbn [wf_fields] in HW. apply andb_true_iff in HW. destruct HW as [Hv Hvs].
    destruct (IH rs vs Hrest Hvs) as [IW IE].
    cbn [wf_fields enc_fields]. rewrite IW, IE. cbn [snd] in Hc.
    destruct o as [v|].
    + destruct (Hc rt v Hty Hv) as [W E]. rewrite W, E. split; reflexivity.
    + (* absent: the field is optional in the code, hence optional in the RFC *)
      subst copt. cbn [negb orb] in Ho. rewrite Ho. split; reflexivity.
Qed.

Theorem refines_same_encoding : forall c, same_enc c.
Proof.
  apply ty_ind'; unfold same_enc.
  1-8: intros r v HR HW; destruct r; try discriminate HR; split; [exact HW | reflexivity].
  - (* TSeq *) intros fs Hfs r v HR HW. destruct r; try discriminate HR. cbn [schema_refines] in HR.
    destruct v; try discriminate HW. cbn [wf_val enc] in *.
    destruct (same_enc_fields fs Hfs _ _ HR HW) as [W E]. rewrite W, E. split; reflexivity.
  - (* TSeqOf *) intros e IH r v HR HW. destruct r; try discriminate HR. cbn [schema_refines] in HR.
    destruct v; try discriminate HW. cbn [wf_val enc] in *.
    assert (H : forallb (wf_val r) vs = true /\ flat_map (enc r) vs = flat_map (enc e) vs).
    { induction vs as [| x vs IHvs]; [split; reflexivity|].
      cbn [forallb] in HW. apply andb_true_iff in HW. destruct HW as [Hx Hvs].
      destruct (IH r x HR Hx) as [W E]. destruct (IHvs Hvs) as [W' E'].
      cbn [forallb flat_map]. rewrite W, W', E, E'. split; reflexivity. }
    destruct H as [W E]. rewrite W, E. split; reflexivity.
  - (* TApp *) intros n t IH r v HR HW. destruct r; try discriminate HR. cbn [schema_refines] in HR.
    apply andb_true_iff in HR. destruct HR as [Hn HR]. apply Z.eqb_eq in Hn. subst.
    cbn [wf_val enc] in *. destruct (IH r v HR HW) as [W E]. rewrite W, E. split; reflexivity.
  - (* TRaw *) intros r v HR HW. destruct r; try discriminate HR. split; [exact HW | reflexivity].
Qed.

(* the code's encoder and the RFC's encoder agree on every value the code can encode *)
Corollary refines_encode c r v b :
  schema_refines c r = true -> encode c v = Some b -> encode r v = Some b.
Proof.
  intros HR HE. apply encode_some in HE. destruct HE as [HW ->].
  destruct (refines_same_encoding c r v HR HW) as [W E]. apply encode_some. split; [exact W | symmetry; exact E].
Qed.

(* an independent decoder written from the RFC schema reads the code's encoding to the same field values *)
Theorem rfc_decoder_reads_code_encoding c r v b :
  schema_refines c r = true -> schema_ok r = true ->
  encode c v = Some b -> zlen b < 2 ^ 32 ->
  decode_top r b = Some v.
Proof.
  intros HR Hok HE Hlen. pose proof (refines_encode c r v b HR HE) as HE'.
  apply (decode_top_encode r v b Hok HE' Hlen).
Qed.

(* lifted to tables of named schemas *)
Theorem schemas_refine_sound gen rfc :
  schemas_refine gen rfc = true ->
  forall name g, In (name, g) gen ->
  exists r, lookup name rfc = Some r /\ schema_refines g r = true.
Proof.
  unfold schemas_refine. intros H name g Hin.
  rewrite forallb_forall in H. specialize (H _ Hin). unfold schema_refines_in in H. cbn [fst snd] in H.
  destruct (lookup name rfc) as [r|]; [|discriminate]. exists r. split; [reflexivity | exact H].
Qed.

(* refinement is reflexive (sanity: the checker accepts identical schemas) *)
Theorem schema_refines_refl : forall t, schema_refines t t = true.
Proof.
  apply ty_ind'; try reflexivity.
  - intros fs H. cbn [schema_refines]. induction H as [| [[tag o] t] fs Ht _ IH]; [reflexivity|].
    cbn [fields_refine]. cbn [snd] in Ht. rewrite Ht, IH.
    assert (tag_eqb tag tag = true) as -> by (destruct tag; simpl; [apply Z.eqb_refl | reflexivity]).
    destruct o; reflexivity.
  - intros e H. exact H.
  - intros n t H. cbn [schema_refines]. rewrite Z.eqb_refl, H. reflexivity.
Qed.

(* the check is not vacuous: a wrong tag, a wrong string kind, an optional-for-mandatory and a missing field are
   each rejected *)
Example refines_rejects :
  let rfc := TSeq [(Some 0, false, TInt); (Some 1, true, TGenStr)] in
  schema_refines (TSeq [(Some 0, false, TInt); (Some 1, false, TGenStr)]) rfc = true /\
  schema_refines (TSeq [(Some 0, false, TInt); (Some 2, true, TGenStr)]) rfc = false /\
  schema_refines (TSeq [(Some 0, false, TInt); (Some 1, true, TOctets)]) rfc = false /\
  schema_refines (TSeq [(Some 0, true, TInt); (Some 1, true, TGenStr)]) rfc = false /\
  schema_refines (TSeq [(Some 0, false, TInt)]) rfc = false.
Proof. repeat split. Qed.

Lemma lookup_forallb (P : ty -> bool) l : forallb (fun e : string * ty => P (snd e)) l = true ->
  forall n r, lookup n l = Some r -> P r = true.
Proof.
  induction l as [| [k t] l IH]; intros H n r L; [discriminate|].
  cbn [forallb snd] in H. apply andb_true_iff in H. destruct H as [Ht Hl].
  cbn [lookup] in L. destruct (String.eqb k n); [inversion L; subst; exact Ht | eapply IH; eauto].
Qed.

(* The form used by conform/ConfSchemas.v: from the two computed facts (the generated table refines the RFC
   table; every RFC schema is unambiguous) every encoding of a generated schema is read back by the RFC schema
   of the same name. *)
Theorem refinement_gives_interop gen rfc :
  schemas_refine gen rfc = true ->
  forallb (fun e : string * ty => schema_ok (snd e)) rfc = true ->
  forall name g v b, In (name, g) gen -> encode g v = Some b -> zlen b < 2 ^ 32 ->
  exists r, lookup name rfc = Some r /\ decode_top r b = Some v.
Proof.
  intros HR Hok name g v b Hin HE Hlen.
  destruct (schemas_refine_sound gen rfc HR name g Hin) as (r & L & R).
  exists r. split; [exact L|].
  apply (rfc_decoder_reads_code_encoding g r v b R (lookup_forallb schema_ok rfc Hok name r L) HE Hlen).
Qed.
