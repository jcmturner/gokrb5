(* Proofs about Keytab.get_key: soundness, completeness, newest-entry preference. *)
From Gokrb5.lib Require Import Bytes JV.
From Gokrb5.model Require Import Keytab.

Lemma comps_eq_eq a b : comps_eq a b = true <-> a = b.
Proof.
  revert b; induction a as [|x a IH]; intros [|y b]; cbn; try (split; congruence).
  rewrite andb_true_iff, beq_bytes_eq, IH.
  split; [intros [-> ->]; reflexivity | intros H; inversion H; auto].
Qed.

(* The specification of a match, written from the property statement. *)
Definition matches (names : list bytes) (realm : bytes) (kvno etype : Z) (k : entry) : Prop :=
  p_comps (e_princ k) = names /\ p_realm (e_princ k) = realm /\ e_ktype k = etype /\
  (kvno = 0 \/ e_kvno k = wrap 32 kvno).

Lemma kt_match_spec names realm kvno etype k :
  kt_match names realm kvno etype k = true <-> matches names realm kvno etype k.
Proof.
  unfold kt_match, matches.
  rewrite !andb_true_iff, orb_true_iff, beq_bytes_eq, comps_eq_eq, !Z.eqb_eq. tauto.
Qed.

Definition best_inv (names : list bytes) (realm : bytes) (kvno etype : Z)
           (seen : list entry) (best : option entry) : Prop :=
  match best with
  | None => forall e, In e seen -> ~ matches names realm kvno etype e
  | Some b => In b seen /\ matches names realm kvno etype b /\
              forall e, In e seen -> matches names realm kvno etype e -> e_ts e <= e_ts b
  end.

Lemma best_inv_snoc names realm kvno etype seen best k :
  best_inv names realm kvno etype seen best ->
  best_inv names realm kvno etype (seen ++ [k])
    (if kt_match names realm kvno etype k && match best with None => true | Some b => e_ts b <? e_ts k end
     then Some k else best).
Proof.
  intros Hinv.
  assert (Hsn : forall e, In e (seen ++ [k]) <-> In e seen \/ e = k)
    by (intros e; rewrite in_app_iff; cbn; intuition congruence).
  destruct (kt_match names realm kvno etype k) eqn:Hm; cbn [andb].
  - apply kt_match_spec in Hm. destruct best as [b|]; cbn [best_inv] in Hinv.
    + destruct Hinv as (Hin & Hmb & Hmax).
      destruct (Z.ltb_spec (e_ts b) (e_ts k)); cbn [best_inv]; rewrite Hsn.
      * split; [auto|]. split; [exact Hm|]. intros e He Hme. apply Hsn in He.
        destruct He as [He| ->]; [specialize (Hmax e He Hme)|]; lia.
      * split; [auto|]. split; [exact Hmb|]. intros e He Hme. apply Hsn in He.
        destruct He as [He| ->]; [auto|lia].
    + cbn [best_inv]. rewrite Hsn. split; [auto|]. split; [exact Hm|]. intros e He Hme. apply Hsn in He.
      destruct He as [He| ->]; [destruct (Hinv e He Hme)|lia].
  - assert (~ matches names realm kvno etype k) as Hn by (rewrite <- kt_match_spec; congruence).
    destruct best as [b|]; cbn [best_inv] in *.
    + destruct Hinv as (Hin & Hmb & Hmax). rewrite Hsn. split; [auto|]. split; [exact Hmb|].
      intros e He Hme. apply Hsn in He. destruct He as [He| ->]; [auto|contradiction].
    + intros e He. apply Hsn in He. destruct He as [He| ->]; auto.
Qed.

Lemma get_key_loop_inv names realm kvno etype es :
  forall seen best,
    best_inv names realm kvno etype seen best ->
    best_inv names realm kvno etype (seen ++ es) (get_key_loop names realm kvno etype es best).
Proof.
  induction es as [|k es IH]; intros seen best Hinv; cbn [get_key_loop].
  - now rewrite app_nil_r.
  - replace (seen ++ k :: es) with ((seen ++ [k]) ++ es) by (now rewrite <- app_assoc).
    apply best_inv_snoc with (k := k) in Hinv.
    destruct (kt_match names realm kvno etype k && _); apply IH, Hinv.
Qed.

Lemma get_key_loop_spec names realm kvno etype es :
  best_inv names realm kvno etype es (get_key_loop names realm kvno etype es None).
Proof.
  apply (get_key_loop_inv names realm kvno etype es [] None). cbn. intros e [].
Qed.

Theorem get_key_sound es names realm kvno etype key kt kv :
  get_key es names realm kvno etype = Ok (key, kt, kv) ->
  exists e, In e es /\ matches names realm kvno etype e /\
            key = e_key e /\ kt = e_ktype e /\ kv = e_kvno e /\
            (forall e', In e' es -> matches names realm kvno etype e' -> e_ts e' <= e_ts e).
Proof.
  unfold get_key. pose proof (get_key_loop_spec names realm kvno etype es) as H.
  destruct (get_key_loop names realm kvno etype es None) as [b|]; [|discriminate].
  destruct (length (e_key b) <? 1)%nat; [discriminate|].
  intros E; inversion E; subst. cbn in H. destruct H as (Hin & Hm & Hmax).
  exists b; repeat split; auto; apply Hm.
Qed.

Theorem get_key_none es names realm kvno etype :
  (forall e, In e es -> ~ matches names realm kvno etype e) ->
  get_key es names realm kvno etype = Err 20.
Proof.
  intros Hn. unfold get_key. pose proof (get_key_loop_spec names realm kvno etype es) as H.
  destruct (get_key_loop names realm kvno etype es None) as [b|]; [|reflexivity].
  cbn in H. destruct H as (Hin & Hm & _). exfalso; exact (Hn b Hin Hm).
Qed.

Theorem get_key_complete es names realm kvno etype :
  (forall e, In e es -> e_key e <> []) ->
  (exists e, In e es /\ matches names realm kvno etype e) ->
  exists key kt kv, get_key es names realm kvno etype = Ok (key, kt, kv).
Proof.
  intros Hne (e & Hin & Hm). unfold get_key.
  pose proof (get_key_loop_spec names realm kvno etype es) as H.
  destruct (get_key_loop names realm kvno etype es None) as [b|]; cbn in H.
  - destruct H as (Hinb & _ & _). specialize (Hne b Hinb).
    destruct (e_key b) as [|x l]; [congruence|]. cbn. eauto.
  - exfalso; exact (H e Hin Hm).
Qed.

(* two candidate entries: the newer one is chosen *)
Example get_key_example :
  let p := mkPrincipal 2 [84;69] [[72];[104;111]] 1 in
  let e1 := mkEntry p 100 1 18 [1;2;3] 1 in
  let e2 := mkEntry p 200 2 18 [4;5;6] 2 in
  get_key [e1; e2] [[72];[104;111]] [84;69] 0 18 = Ok ([4;5;6], 18, 2)
  /\ get_key [e1; e2] [[72];[104;111]] [84;69] 1 18 = Ok ([1;2;3], 18, 1)
  /\ get_key [e1; e2] [[72]] [84;69] 0 18 = Err 20.
Proof. vm_compute. auto. Qed.
