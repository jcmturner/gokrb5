(* Further theorems about Client.sendToKDC's decision logic (model/Network.v), free of the no-KRB-ERROR
   hypothesis of failover_complete: what is returned was given by a configured endpoint of a permitted
   transport; every attempt goes to a configured endpoint and none is repeated; a communication error is returned
   only when every permitted endpoint is dead. *)
From Coq Require Import FinFun.
From Gokrb5.lib Require Import Bytes JV.
From Gokrb5.model Require Import Network.
From Gokrb5.proofs Require Import NetworkProofs.

Lemma nodup_app_l {A} (a b : list A) : NoDup (a ++ b) -> NoDup a.
Proof.
  induction a as [|x a IH]; cbn; intros H; [constructor|].
  inversion H as [|? ? Hn Hd]; subst. constructor; [|apply IH; exact Hd].
  intros Hin. apply Hn. apply in_or_app; left; exact Hin.
Qed.

Lemma nodup_app_intro {A} (a b : list A) :
  NoDup a -> NoDup b -> (forall x, In x a -> In x b -> False) -> NoDup (a ++ b).
Proof.
  induction a as [|x a IH]; cbn; intros Ha Hb Hd; [exact Hb|].
  inversion Ha as [|? ? Hn Ha']; subst. constructor.
  - intros Hin. apply in_app_or in Hin. destruct Hin as [Hin|Hin]; [contradiction|]. apply (Hd x); [left; reflexivity|exact Hin].
  - apply IH; [exact Ha'|exact Hb|]. intros y H1 H2. apply (Hd y); [right; exact H1|exact H2].
Qed.

Lemma in_tagl_dial beh ou ot k t t' :
  In (k, t) (tagl t' (snd (dial beh ou ot t'))) -> t = t' /\ In k (order_of ou ot t).
Proof.
  unfold tagl, dial. intros H. apply in_map_iff in H. destruct H as (x & E & Hin). injection E as -> ->.
  split; [reflexivity|]. destruct (dial_send_attempts_prefix beh t (order_of ou ot t)) as (rest & ->).
  apply in_or_app. left. exact Hin.
Qed.

Lemma nodup_tagl_dial beh ou ot t :
  NoDup (order_of ou ot t) -> NoDup (tagl t (snd (dial beh ou ot t))).
Proof.
  unfold tagl, dial. intros H. apply FinFun.Injective_map_NoDup; [intros a b E; now injection E|].
  destruct (dial_send_attempts_prefix beh t (order_of ou ot t)) as (rest & E). rewrite E in H.
  exact (nodup_app_l _ _ H).
Qed.

Theorem attempts_are_configured mode beh ou ot k t :
  In (k, t) (snd (send_to_kdc mode beh ou ot)) -> In k (match t with UDP => ou | TCP => ot end).
Proof.
  rewrite send_to_kdc_eq. cbn zeta. destruct (goes_on _ _); cbn [snd]; intros H.
  - apply in_app_or in H. destruct H as [H|H]; apply in_tagl_dial in H; apply H.
  - apply in_tagl_dial in H. apply H.
Qed.

(* no endpoint is tried twice in one exchange (GetKDCs returns each configured server once: C16) *)
Theorem no_attempt_repeated mode beh ou ot :
  NoDup ou -> NoDup ot -> NoDup (snd (send_to_kdc mode beh ou ot)).
Proof.
  intros Hu Ht. assert (forall t, NoDup (order_of ou ot t)) as N by (intros [|]; assumption).
  rewrite send_to_kdc_eq. cbn zeta. destruct (goes_on _ _); cbn [snd]; [|apply nodup_tagl_dial, N].
  apply nodup_app_intro; try apply nodup_tagl_dial, N.
  intros [k t] H1 H2. apply in_tagl_dial in H1. apply in_tagl_dial in H2. destruct H1 as [E1 _]. destruct H2 as [E2 _].
  rewrite E1 in E2. destruct (first_transport mode); discriminate.
Qed.

(* a reply returned to the caller was given by a configured endpoint of a permitted transport - with or without
   KRB-ERRORs and dead endpoints around it *)
Theorem reply_sound mode beh ou ot y :
  fst (send_to_kdc mode beh ou ot) = Reply y ->
  (exists k, In k ot /\ beh k TCP = Answers y) \/ (mode <> 0 /\ exists k, In k ou /\ beh k UDP = Answers y).
Proof.
  assert (forall t, (t = UDP -> mode <> 0) -> fst (dial beh ou ot t) = Reply y ->
            (exists k, In k ot /\ beh k TCP = Answers y) \/ (mode <> 0 /\ exists k, In k ou /\ beh k UDP = Answers y)) as W.
  { intros t Hp E. apply dial_send_reply_sound in E. destruct t; [right; split; [auto|exact E]|left; exact E]. }
  rewrite send_to_kdc_eq. cbn zeta. destruct (goes_on _ _) eqn:G; cbn [fst]; apply W.
  - intros _. exact (goes_on_permitted _ _ G).
  - apply first_transport_permitted.
Qed.

(* the call fails with a communication error only if every endpoint of every permitted transport is dead *)
Theorem comm_err_only_if_all_dead mode beh ou ot :
  fst (send_to_kdc mode beh ou ot) = CommErr ->
  (forall k, In k ot -> dead (beh k TCP)) /\
  (mode <> 0 -> forall k, In k ou -> dead (beh k UDP) \/ (mode = 1 /\ exists j, In j ou /\ beh j UDP = KrbError too_big)).
Proof.
  rewrite send_to_kdc_eq. cbn zeta. set (t1 := first_transport mode).
  pose proof (dial_send_result beh t1 (order_of ou ot t1)) as R1. fold (dial beh ou ot t1) in R1.
  destruct (goes_on mode (fst (dial beh ou ot t1))) eqn:G; cbn [fst]; intros E.
  - (* both phases ran: the second found every endpoint dead; so did the first, unless it was UDP ending in too-big *)
    unfold dial in E. rewrite dial_send_commerr in E. unfold goes_on in G. apply andb_true_iff in G. destruct G as [_ G].
    destruct (fst (dial beh ou ot t1)) as [x|c|]; [discriminate| |].
    + apply andb_true_iff in G. destruct G as [M C]. apply Z.eqb_eq in M, C. subst c mode.
      split; [exact E|]. intros _ k _. right. split; [reflexivity|exact R1].
    + subst t1. destruct (first_transport mode); cbn [other_transport order_of] in *; auto.
  - (* one phase only: TCP is the only transport permitted *)
    rewrite E in G. unfold goes_on in G. rewrite andb_true_r in G. apply negb_false_iff, Z.eqb_eq in G. subst mode.
    rewrite E in R1. split; [exact R1|]. intros M. now destruct M.
Qed.
