(* Facts about model/Crypto.v that need no cipher property: etype families, checksum verification (C07), errors
   and panic-freedom of decrypt (C06), RC4 usage aliases (C05), and encrypt_with / decrypt family by family. *)
From Gokrb5.lib Require Import Bytes JV.
From Gokrb5.prim Require SHA1 SHA256 SHA512 MD4 MD5 HMAC PBKDF2 CBC AES DES RC4.
From Gokrb5.model Require Import Crypto.

Lemma et_family_cases et f : et_family et = Some f ->
  match f with
  | FAesSha1 => et = 17 \/ et = 18 | FAesSha2 => et = 19 \/ et = 20 | FDes3 => et = 16 | FRc4 => et = 23
  end.
Proof.
  unfold et_family.
  destruct (Z.eqb_spec et 17); [intros H; injection H as <-; auto|].
  destruct (Z.eqb_spec et 18); [intros H; injection H as <-; auto|].
  destruct (Z.eqb_spec et 19); [intros H; injection H as <-; auto|].
  destruct (Z.eqb_spec et 20); [intros H; injection H as <-; auto|].
  destruct (Z.eqb_spec et 16); [intros H; injection H as <-; auto|].
  destruct (Z.eqb_spec et 23); [intros H; injection H as <-; auto|]. discriminate.
Qed.

Definition aes_family (et : Z) : Prop := et_family et = Some FAesSha1 \/ et_family et = Some FAesSha2.

Lemma aes_family_cases et : aes_family et -> et = 17 \/ et = 18 \/ et = 19 \/ et = 20.
Proof. intros [H|H]; apply et_family_cases in H; tauto. Qed.

Lemma aes_conf_len et : aes_family et -> conf_len et = 16%nat.
Proof. intros H. destruct (aes_family_cases et H) as [->|[->|[->| ->]]]; reflexivity. Qed.

Theorem verify_checksum_iff et key usage data chk :
  verify_checksum et key usage data chk = true <-> checksum et key usage data = Ok chk.
Proof.
  unfold verify_checksum. destruct (checksum et key usage data) as [c|e|s].
  - rewrite beq_bytes_eq. split; [intros ->; reflexivity|intros H; injection H as ->; reflexivity].
  - split; discriminate.
  - split; discriminate.
Qed.

Lemma et_hmac_length et k d : (mac_len et <= length (et_hmac et k d))%nat.
Proof.
  unfold et_hmac, mac_len.
  destruct (Z.eqb_spec et 17) as [->|N17]; [cbn; rewrite HMAC.hmac_sha1_length; lia|].
  destruct (Z.eqb_spec et 18) as [->|N18]; [cbn; rewrite HMAC.hmac_sha1_length; lia|].
  destruct (Z.eqb_spec et 19) as [->|N19]; [cbn; rewrite HMAC.hmac_sha256_length; lia|].
  destruct (Z.eqb_spec et 20) as [->|N20]; [cbn; rewrite HMAC.hmac_sha384_length; lia|].
  destruct (Z.eqb_spec et 16) as [->|N16]; [cbn; rewrite HMAC.hmac_sha1_length; lia|].
  destruct (Z.eqb_spec et 23) as [->|N23]; [cbn; rewrite HMAC.hmac_md5_length; lia|].
  cbn. lia.
Qed.

Theorem checksum_length et key usage data c :
  checksum et key usage data = Ok c -> length c = mac_len et.
Proof.
  unfold checksum. destruct (et_family et) as [[| | |]|] eqn:F; try discriminate.
  1-3: destruct (derive_key et key (usage_const usage 153)) as [kc| |]; cbn [bind]; try discriminate;
       intros H; injection H as <-; rewrite firstn_length; pose proof (et_hmac_length et kc data); lia.
  intros H; injection H as <-. unfold rc4_checksum. rewrite HMAC.hmac_md5_length.
  apply et_family_cases in F. subst et. reflexivity.
Qed.

(* hence neither a proper prefix nor an extension of the right value verifies *)
Corollary verify_checksum_exact_length et key usage data chk :
  verify_checksum et key usage data chk = true -> length chk = mac_len et.
Proof. intros H. apply verify_checksum_iff in H. eapply checksum_length; eauto. Qed.

(* IANA: checksum type <-> encryption type (Kerberos parameters registry) *)
Definition iana_chksum_etype : list (Z * Z) :=
  [(12, 16); (15, 17); (16, 18); (19, 19); (20, 20); (-138, 23)].

Theorem chksum_etype_matches_iana :
  forallb (fun '(ct, et) => match etype_of_chksum_type ct with Some e => e =? et | None => false end
                            && (chksum_type_of_etype et =? ct)) iana_chksum_etype = true.
Proof. reflexivity. Qed.

Theorem chksum_etype_only_iana ct et :
  etype_of_chksum_type ct = Some et -> In (ct, et) iana_chksum_etype.
Proof.
  unfold etype_of_chksum_type, iana_chksum_etype.
  repeat match goal with |- context [?a =? ?b] => destruct (Z.eqb_spec a b); [subst; intros H; injection H as <-; cbn; tauto|] end.
  discriminate.
Qed.

Theorem decrypt_short_is_error et key usage ct :
  (length ct < conf_len et + mac_len et)%nat -> exists e, decrypt et key usage ct = Err e.
Proof.
  intros H. unfold decrypt. destruct (et_family et) as [[| | |]|] eqn:F; eauto.
  1,3: destruct (Nat.ltb_spec (length ct) (conf_len et + mac_len et)); [eauto|lia].
  1: destruct (negb _); [eauto|]; destruct (Nat.ltb_spec (length ct) (conf_len et + mac_len et)); [eauto|lia].
  destruct (negb _); [eauto|].
  apply et_family_cases in F. subst et. unfold rc4_decrypt.
  destruct (Nat.ltb_spec (length ct) 24); [eauto|]. cbn in H. lia.
Qed.

Lemma derive_key_no_panic et key c : is_panic (derive_key et key c) = false.
Proof.
  unfold derive_key. destruct (et_family et) as [[| | |]|]; try reflexivity.
  - destruct (negb _); reflexivity.
  - destruct (et =? 19); reflexivity.
  - destruct (negb _); reflexivity.
Qed.

Lemma cts_decrypt_no_panic dec c : is_panic (cts_decrypt dec c) = false.
Proof.
  unfold cts_decrypt. destruct (length c <? 16)%nat; [reflexivity|].
  destruct (length c =? 16)%nat; [reflexivity|].
  destruct (last_two (CBC.chunks 16 c)) as [[[? ?] ?]|]; reflexivity.
Qed.

Lemma integrity_hash_no_panic et key usage d : is_panic (integrity_hash et key usage d) = false.
Proof. unfold integrity_hash. apply bind_no_panic; [apply derive_key_no_panic|reflexivity]. Qed.

(* decrypt for the two AES profiles after the length checks; g pt is what the MAC is computed over: pt itself
   (RFC 3962) or the zero IV and the ciphertext (RFC 8009) *)
Definition aes_open (et : Z) (key : bytes) (usage : Z) (ct : bytes) (g : bytes -> bytes) : res bytes :=
  do ke <- derive_key et key (usage_const usage 170);
  let n := (length ct - mac_len et)%nat in
  do pt <- cts_decrypt (aes_ecb_dec ke) (firstn n ct);
  do ih <- integrity_hash et key usage (g pt);
  if beq_bytes ih (skipn n ct) then Ok (skipn 16 pt) else Err 41.

Lemma aes_open_no_panic et key usage ct g : is_panic (aes_open et key usage ct g) = false.
Proof.
  unfold aes_open.
  apply bind_no_panic; [apply derive_key_no_panic|intros ke _].
  apply bind_no_panic; [apply cts_decrypt_no_panic|intros pt _].
  apply bind_no_panic; [apply integrity_hash_no_panic|intros ih _].
  destruct (beq_bytes ih _); reflexivity.
Qed.

Lemma aes_open_ok et key usage ct g m : aes_open et key usage ct g = Ok m ->
  exists ke pt, derive_key et key (usage_const usage 170) = Ok ke /\
    cts_decrypt (aes_ecb_dec ke) (firstn (length ct - mac_len et) ct) = Ok pt /\
    integrity_hash et key usage (g pt) = Ok (skipn (length ct - mac_len et) ct) /\ m = skipn 16 pt.
Proof.
  unfold aes_open. intros E.
  apply bind_ok in E. destruct E as (ke & Ek & E). apply bind_ok in E. destruct E as (pt & Ep & E).
  apply bind_ok in E. destruct E as (ih & Ei & E).
  destruct (beq_bytes ih _) eqn:B; [|discriminate]. apply beq_bytes_eq in B. subst ih.
  apply ok_inj in E. eauto 6.
Qed.

Theorem decrypt_never_panics et key usage ct : is_panic (decrypt et key usage ct) = false.
Proof.
  unfold decrypt. destruct (et_family et) as [[| | |]|]; try reflexivity.
  - destruct (length ct <? conf_len et + mac_len et)%nat; [reflexivity|].
    exact (aes_open_no_panic et key usage ct (fun pt => pt)).
  - destruct (negb _); [reflexivity|].
    destruct (length ct <? conf_len et + mac_len et)%nat; [reflexivity|].
    exact (aes_open_no_panic et key usage ct (fun _ => zeros 16 ++ firstn (length ct - mac_len et) ct)).
  - destruct (length ct <? conf_len et + mac_len et)%nat; [reflexivity|].
    apply bind_no_panic; [apply derive_key_no_panic|intros ke _].
    destruct (negb _); [reflexivity|].
    apply bind_no_panic; [apply integrity_hash_no_panic|intros ih _].
    destruct (beq_bytes ih _); reflexivity.
  - destruct (negb _); [reflexivity|].
    unfold rc4_decrypt. destruct (length ct <? 24)%nat; [reflexivity|].
    destruct (beq_bytes _ _); reflexivity.
Qed.

Definition rc4_alias (u : Z) : Z := if (u =? 3) || (u =? 9) then 8 else if u =? 23 then 13 else u.

Theorem rc4_usage_alias u : rc4_msg_type u = le_bytes 4 (rc4_alias u) /\ length (rc4_msg_type u) = 4%nat.
Proof. unfold rc4_msg_type, rc4_alias. split; [reflexivity|apply le_bytes_length]. Qed.

(* distinct message types for distinct (non-aliased) usages: every 32-bit usage, not only those < 128 *)
Theorem rc4_msg_type_injective u1 u2 :
  0 <= u1 < 2 ^ 32 -> 0 <= u2 < 2 ^ 32 ->
  (rc4_msg_type u1 = rc4_msg_type u2 <-> rc4_alias u1 = rc4_alias u2).
Proof.
  intros H1 H2. destruct (rc4_usage_alias u1) as [-> _]. destruct (rc4_usage_alias u2) as [-> _].
  assert (forall u, 0 <= u < 2 ^ 32 -> 0 <= rc4_alias u < 256 ^ Z.of_nat 4) as R.
  { intros u Hu. unfold rc4_alias. change (256 ^ Z.of_nat 4) with (2 ^ 32).
    destruct ((u =? 3) || (u =? 9)); [lia|]. destruct (u =? 23); lia. }
  split; [apply le_bytes_inj; auto|intros ->; reflexivity].
Qed.

Example rc4_msg_type_128 : rc4_msg_type 128 = [128; 0; 0; 0] /\ rc4_msg_type 3 = [8; 0; 0; 0]
                           /\ rc4_msg_type 9 = [8;0;0;0] /\ rc4_msg_type 23 = [13;0;0;0].
Proof. repeat split. Qed.

Theorem decrypt_wrong_key_size_is_error et key usage ct :
  length key <> key_len et -> exists e, decrypt et key usage ct = Err e.
Proof.
  intros H. apply Nat.eqb_neq in H. unfold decrypt.
  destruct (et_family et) as [[| | |]|] eqn:F; [| | | |eauto].
  - destruct (_ <? _)%nat; [eauto|]. unfold derive_key. rewrite F, H. cbn [negb bind]. eauto.
  - rewrite H. cbn [negb]. eauto.
  - destruct (_ <? _)%nat; [eauto|]. unfold derive_key. rewrite F.
    apply et_family_cases in F. subst et.
    change (key_len 16) with 24%nat in H. rewrite H. cbn [negb bind]. eauto.
  - rewrite H. cbn [negb]. eauto.
Qed.

Definition aes_mac_input (et : Z) (pt c : bytes) : bytes :=
  match et_family et with Some FAesSha2 => zeros 16 ++ c | _ => pt end.

Lemma encrypt_with_aes et key usage conf msg ct :
  aes_family et -> encrypt_with et key usage conf msg = Ok ct ->
  length key = key_len et /\
  exists ke ih, derive_key et key (usage_const usage 170) = Ok ke /\
    integrity_hash et key usage (aes_mac_input et (conf ++ msg) (cts_encrypt (aes_ecb ke) (conf ++ msg))) = Ok ih /\
    ct = cts_encrypt (aes_ecb ke) (conf ++ msg) ++ ih.
Proof.
  intros Hf. unfold encrypt_with, aes_mac_input. destruct Hf as [-> | ->].
  all: destruct (Nat.eqb_spec (length key) (key_len et)) as [Hk|Hk]; cbn [negb]; [|discriminate].
  all: destruct (derive_key et key (usage_const usage 170)) as [ke| |]; cbn [bind]; try discriminate.
  all: destruct (integrity_hash et key usage _) as [ih| |] eqn:Ei; cbn [bind]; try discriminate.
  all: intros E; injection E as <-; eauto 6.
Qed.

Lemma decrypt_aes et key usage ct :
  aes_family et -> length key = key_len et ->
  decrypt et key usage ct =
  if (length ct <? 16 + mac_len et)%nat then Err 40
  else aes_open et key usage ct (fun pt => aes_mac_input et pt (firstn (length ct - mac_len et) ct)).
Proof.
  intros Hf Hk. unfold decrypt, aes_open, aes_mac_input. rewrite (aes_conf_len et Hf), Hk, Nat.eqb_refl.
  destruct Hf as [-> | ->]; reflexivity.
Qed.

Lemma decrypt_des3 key usage ct :
  decrypt 16 key usage ct =
  if (length ct <? 8 + 20)%nat then Err 40 else
  do ke <- derive_key 16 key (usage_const usage 170);
  let n := (length ct - 20)%nat in
  if negb (n mod 8 =? 0)%nat then Err 42 else
  let pt := CBC.cbc_decrypt (des3_ecb_dec ke) 8 (zeros 8) (firstn n ct) in
  do ih <- integrity_hash 16 key usage pt;
  if beq_bytes ih (skipn n ct) then Ok (skipn 8 pt) else Err 41.
Proof. reflexivity. Qed.

Lemma encrypt_with_des3 key usage conf msg ct :
  encrypt_with 16 key usage conf msg = Ok ct ->
  exists ke ih, derive_key 16 key (usage_const usage 170) = Ok ke /\
    integrity_hash 16 key usage (zpad 8 (conf ++ msg)) = Ok ih /\
    ct = CBC.cbc_encrypt (des3_ecb ke) 8 (zeros 8) (zpad 8 (conf ++ msg)) ++ ih.
Proof.
  unfold encrypt_with. change (et_family 16) with (Some FDes3). cbv iota.
  destruct (derive_key 16 key (usage_const usage 170)) as [ke| |]; cbn [bind]; try discriminate.
  destruct (integrity_hash 16 key usage _) as [ih| |] eqn:Ei; cbn [bind]; try discriminate.
  intros E; injection E as <-. eauto.
Qed.

Lemma encrypt_with_rc4 key usage conf msg : encrypt_with 23 key usage conf msg = rc4_encrypt key usage conf msg.
Proof. unfold encrypt_with. change (et_family 23) with (Some FRc4). cbv iota. destruct (negb _); reflexivity. Qed.

(* HMAC-MD5 always yields the 16 octets RC4 is keyed with *)
Lemma rc4_encrypt_ok key usage conf msg :
  rc4_encrypt key usage conf msg =
  Ok (let k2 := HMAC.hmac_md5 key (rc4_msg_type usage) in
      let chk := HMAC.hmac_md5 k2 (conf ++ msg) in
      chk ++ RC4.rc4 (HMAC.hmac_md5 k2 chk) (conf ++ msg)).
Proof. unfold rc4_encrypt. rewrite HMAC.hmac_md5_length. reflexivity. Qed.
