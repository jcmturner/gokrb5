(* Every (ticket, session key) pair the client hands back was issued together by the KDC for the SPN asked for -
   for every source of session keys, every history of requests and destroys, served and refused renewals. *)
From Gokrb5.lib Require Import Bytes JV.
From Gokrb5.model Require Import ClientPairs.

Definition pair_of (a : paction) : option (Z * Z) :=
  match a with
  | PHit t k | PRenewed t k | PRefused t k | PFresh t k => Some (t, k)
  | PLost => None
  end.

Definition pcache_from_log (s : pstate) : Prop :=
  forall e, In e (ps_cache s) -> In (pe_tid e, pe_spn e, pe_key e) (pk_log (ps_kdc s)).

Lemma pstore_in e c x : In x (pstore e c) -> x = e \/ In x c.
Proof. unfold pstore. intros [<-|H]; [left; reflexivity|right]. apply filter_In in H. apply H. Qed.

Lemma plookup_pstore e c : plookup (pe_spn e) (pstore e c) = Some e.
Proof. unfold plookup, pstore. cbn [find]. rewrite Z.eqb_refl. reflexivity. Qed.

Lemma plookup_some spn c e : plookup spn c = Some e -> In e c /\ pe_spn e = spn.
Proof. unfold plookup. intros H. apply find_some in H. destruct H as [H1 H2]. apply Z.eqb_eq in H2. auto. Qed.

Section Keys.
  Variable keysrc : Z -> Z.

  Lemma pissue_log k spn now e k' :
    pissue keysrc k spn now = (e, k') ->
    pe_spn e = spn /\ pk_log k' = (pe_tid e, spn, pe_key e) :: pk_log k.
  Proof. unfold pissue. intros H. injection H as <- <-. cbn. auto. Qed.

  Lemma prenew_log k e0 now e k' :
    prenew keysrc k e0 now = (e, k') ->
    pe_spn e = pe_spn e0 /\ pk_log k' = (pe_tid e, pe_spn e0, pe_key e) :: pk_log k.
  Proof. unfold prenew. intros H. injection H as <- <-. cbn. auto. Qed.

  (* a served renewal and a fresh issue are one case: the entry stored heads the KDC's new log *)
  Lemma pget_cases s spn now a s' :
    pget keysrc s spn now = (a, s') ->
    (exists e, In e (ps_cache s) /\ pe_spn e = spn /\ a = PHit (pe_tid e) (pe_key e) /\ s' = s) \/
    (exists e' k', pe_spn e' = spn /\ pk_log k' = (pe_tid e', spn, pe_key e') :: pk_log (ps_kdc s) /\
                   s' = mkPS (pstore e' (ps_cache s)) k' /\ pair_of a = Some (pe_tid e', pe_key e')).
  Proof.
    unfold pget. destruct (pissue keysrc (ps_kdc s) spn now) as [e1 k1] eqn:E1. destruct (pissue_log _ _ _ _ _ E1) as [Es1 El1].
    destruct (plookup spn (ps_cache s)) as [e|] eqn:L; [|intros H; injection H as <- <-; right; exists e1, k1; auto].
    destruct (plookup_some _ _ _ L) as [Hin Hs].
    destruct ((pe_start e <? now) && (now <? pe_end e)).
    { intros H. injection H as <- <-. left. exists e. auto. }
    destruct (now <? pe_renew e); [|intros H; injection H as <- <-; right; exists e1, k1; auto].
    destruct (pk_serves (ps_kdc s) && (now + pk_ahead (ps_kdc s) <=? pe_end e + 1000));
      [|intros H; injection H as <- <-; right; exists e1, k1; auto].
    (* a served renewal: the entry read back from the cache is the one just stored *)
    destruct (prenew keysrc (ps_kdc s) e now) as [e2 k2] eqn:E2. destruct (prenew_log _ _ _ _ _ E2) as [Es2 El2].
    rewrite Hs in Es2, El2. rewrite <- Es2 at 1. rewrite plookup_pstore.
    intros H. injection H as <- <-. right. exists e2, k2. auto.
  Qed.

  Theorem pget_pair_from_log s spn now a s' :
    pcache_from_log s -> pget keysrc s spn now = (a, s') ->
    a <> PLost /\
    (forall t k, pair_of a = Some (t, k) -> In (t, spn, k) (pk_log (ps_kdc s'))) /\
    pcache_from_log s'.
  Proof.
    intros Inv H. destruct (pget_cases _ _ _ _ _ H) as [(e & Hin & <- & -> & ->)|(e' & k' & Es & El & -> & Hp)].
    - split; [discriminate|]. split; [|exact Inv]. intros t k Hp. injection Hp as <- <-. exact (Inv e Hin).
    - cbn [ps_kdc]. rewrite El. split; [intros ->; discriminate|]. split.
      + intros t k Hp'. rewrite Hp in Hp'. injection Hp' as <- <-. left. reflexivity.
      + intros x Hx. cbn [ps_cache ps_kdc] in *. rewrite El. apply pstore_in in Hx. destruct Hx as [->|Hx].
        * left. now rewrite Es.
        * right. apply Inv. exact Hx.
  Qed.

  (* over every operation sequence from any state whose cache came from the KDC *)
  Theorem pairs_issued_together : forall ops s,
    pcache_from_log s ->
    forall o a s', In (o, Some a, s') (pstates keysrc s ops) ->
    exists spn now, o = PGet spn now /\ a <> PLost /\
      forall t k, pair_of a = Some (t, k) -> In (t, spn, k) (pk_log (ps_kdc s')).
  Proof.
    induction ops as [|o ops IH]; intros s Inv o' a s' Hin; [destruct Hin|].
    cbn [pstates] in Hin. destruct o as [spn now|].
    - cbn [pstep] in Hin. destruct (pget keysrc s spn now) as [a0 s0] eqn:E.
      destruct (pget_pair_from_log s spn now a0 s0 Inv E) as (Hne & Hlog & Inv').
      destruct Hin as [H|H].
      + injection H as <- <- <-. exists spn, now. auto.
      + eapply IH; eauto.
    - cbn [pstep] in Hin. destruct Hin as [H|H]; [discriminate|].
      eapply IH; [|exact H]. intros e [].
  Qed.

  Corollary pairs_issued_together_fresh life renew serves ahead ops o a s' :
    In (o, Some a, s') (pstates keysrc (mkPS [] (mkPK 0 life renew serves ahead [])) ops) ->
    exists spn now, o = PGet spn now /\ a <> PLost /\
      forall t k, pair_of a = Some (t, k) -> In (t, spn, k) (pk_log (ps_kdc s')).
  Proof. apply pairs_issued_together. intros e []. Qed.
End Keys.

(* Non-vacuity, and what the theorem excludes: a history in which the renewal is served (new ticket 1 with new key
   1 after ticket 0 with key 0); a client that patched the OLD entry with the new ticket but kept its key would hand
   back (1, 0), which is not in the log. *)
Example served_renewal_example :
  let s0 := mkPS [] (mkPK 0 2 60 true 0 []) in
  prun (fun n => n) s0 [PGet 7 500; PGet 7 1000; PGet 7 2300; PGet 7 2400; PGet 7 9000] =
    [Some (PFresh 0 0); Some (PHit 0 0); Some (PRenewed 1 1); Some (PHit 1 1); Some (PRefused 2 2)]
  /\ ~ In (1, 7, 0) [(2, 7, 2); (1, 7, 1); (0, 7, 0)].
Proof. split; [vm_compute; reflexivity|]. cbn. intuition congruence. Qed.
