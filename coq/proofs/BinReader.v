(* The fixed-width readers of the keytab and credential-cache models on bytes produced by [put].
   Keytab.v and CCache.v each define their own readers (the Go packages do); they are the same functions
   up to error codes, so every fact is proved for the keytab readers and carried over. *)
From Gokrb5.lib Require Import Bytes JV.
From Gokrb5.model Require Import Keytab CCache.

Lemma put_length w le z : length (put w le z) = w.
Proof. unfold put; destruct le; [apply le_bytes_length | apply be_bytes_length]. Qed.

Lemma put_zlen w le z : zlen (put w le z) = Z.of_nat w.
Proof. unfold zlen; now rewrite put_length. Qed.

Lemma val_put w le z : val le (put w le z) = z mod 2 ^ (8 * Z.of_nat w).
Proof. rewrite <- pow256. unfold val, put; destruct le; [apply le_val_le_bytes | apply be_val_be_bytes]. Qed.

Lemma put_wrap8 le z : [wrap 8 z] = put 1 le z.
Proof. destruct le; reflexivity. Qed.

Lemma read_n_app w x rest : length x = w -> read_n w (x ++ rest) = Ok (x, rest).
Proof.
  intros <-. unfold read_n. rewrite app_length.
  destruct (Nat.ltb_spec (length x + length rest) (length x)); [lia|].
  now rewrite firstn_app_exact, skipn_app_exact.
Qed.

Lemma read_n_rest w r x r' : read_n w r = Ok (x, r') -> length r' = (length r - w)%nat.
Proof.
  unfold read_n. destruct (length r <? w)%nat; [discriminate|].
  intros E. injection E as _ <-. apply skipn_length.
Qed.

(* Whatever z is, reading back the w bytes written for z gives the signed reading of z's low 8w bits;
   [sint_mod_signed] (signed fields) or [wrap_sint_mod] (unsigned fields, which the code converts back)
   then recover z inside the field's range. *)
Lemma read_int_put_eq w le z rest :
  read_int w le (put w le z ++ rest) = Ok (sint (8 * Z.of_nat w) (z mod 2 ^ (8 * Z.of_nat w)), rest).
Proof. unfold read_int. rewrite read_n_app by apply put_length. now rewrite val_put. Qed.

Lemma read_int_put w le z rest :
  (0 < w)%nat -> - 2 ^ (8 * Z.of_nat w - 1) <= z < 2 ^ (8 * Z.of_nat w - 1) ->
  read_int w le (put w le z ++ rest) = Ok (z, rest).
Proof. intros Hw Hz. rewrite read_int_put_eq, sint_mod_signed by lia. reflexivity. Qed.

Lemma read_int_rest w le r l r' : read_int w le r = Ok (l, r') -> length r' = (length r - w)%nat.
Proof.
  unfold read_int. destruct (read_n w r) as [[x r0]| |] eqn:E; try discriminate.
  intros H. injection H as _ <-. exact (read_n_rest _ _ _ _ E).
Qed.

Lemma read_bytes_app s rest : read_bytes (zlen s) (s ++ rest) = Ok (s, rest).
Proof.
  unfold read_bytes. pose proof (zlen_nonneg s).
  destruct (Z.ltb_spec (zlen s) 0); [lia|]. apply read_n_app. symmetry. apply Z2Nat_zlen.
Qed.

Lemma read_int2 le z rest : - 2 ^ 15 <= z < 2 ^ 15 -> read_int 2 le (put 2 le z ++ rest) = Ok (z, rest).
Proof. intros H. apply read_int_put; [lia|exact H]. Qed.

Lemma read_int4 le z rest : - 2 ^ 31 <= z < 2 ^ 31 -> read_int 4 le (put 4 le z ++ rest) = Ok (z, rest).
Proof. intros H. apply read_int_put; [lia|exact H]. Qed.

Lemma rd_bytes_read_n w r : rd_bytes (Z.of_nat w) r = read_n w r.
Proof.
  unfold rd_bytes, read_n, zlen. rewrite Nat2Z.id.
  destruct (Z.ltb_spec (Z.of_nat w) 0); [lia|].
  destruct (Z.ltb_spec (Z.of_nat (length r)) (Z.of_nat w)), (Nat.ltb_spec (length r) w); try lia; reflexivity.
Qed.

Lemma rd_int_read_int w le r : rd_int (Z.of_nat w) le r = read_int w le r.
Proof. unfold rd_int, read_int. rewrite rd_bytes_read_n. destruct (read_n w r) as [[x r']| |]; reflexivity. Qed.

Lemma rd_bytes_app s rest : rd_bytes (zlen s) (s ++ rest) = Ok (s, rest).
Proof.
  unfold rd_bytes. pose proof (zlen_nonneg s). pose proof (zlen_nonneg rest).
  destruct (Z.ltb_spec (zlen s) 0); [lia|].
  rewrite zlen_app. destruct (Z.ltb_spec (zlen s + zlen rest) (zlen s)); [lia|].
  cbn [orb]. now rewrite firstn_zlen_app, skipn_zlen_app.
Qed.

Lemma rd_bytes_rest s r x r' : rd_bytes s r = Ok (x, r') -> 0 <= s /\ Z.of_nat (length r') + s = Z.of_nat (length r).
Proof.
  unfold rd_bytes. destruct (Z.ltb_spec s 0); [discriminate|].
  destruct (Z.ltb_spec (zlen r) s); [discriminate|]. cbn [orb].
  intros E. injection E as _ <-. rewrite skipn_length. unfold zlen in *. lia.
Qed.

Lemma rd_int_rest w le r x r' : rd_int w le r = Ok (x, r') -> 0 <= w /\ Z.of_nat (length r') + w = Z.of_nat (length r).
Proof.
  unfold rd_int. intros E. apply bind_ok in E. destruct E as ([y r1] & E1 & E2).
  injection E2 as _ <-. exact (rd_bytes_rest _ _ _ _ E1).
Qed.

Lemma rd_int1 le z rest : - 2 ^ 7 <= z < 2 ^ 7 -> rd_int 1 le (put 1 le z ++ rest) = Ok (z, rest).
Proof. intros H. rewrite (rd_int_read_int 1). apply read_int_put; [lia|exact H]. Qed.

Lemma rd_int2 le z rest : - 2 ^ 15 <= z < 2 ^ 15 -> rd_int 2 le (put 2 le z ++ rest) = Ok (z, rest).
Proof. intros H. rewrite (rd_int_read_int 2). now apply read_int2. Qed.

Lemma rd_int4 le z rest : - 2 ^ 31 <= z < 2 ^ 31 -> rd_int 4 le (put 4 le z ++ rest) = Ok (z, rest).
Proof. intros H. rewrite (rd_int_read_int 4). now apply read_int4. Qed.

Lemma rd_int2_eq le z rest : rd_int 2 le (put 2 le z ++ rest) = Ok (sint 16 (z mod 2 ^ 16), rest).
Proof. rewrite (rd_int_read_int 2). apply read_int_put_eq. Qed.

Lemma rd_int4_eq le z rest : rd_int 4 le (put 4 le z ++ rest) = Ok (sint 32 (z mod 2 ^ 32), rest).
Proof. rewrite (rd_int_read_int 4). apply read_int_put_eq. Qed.

(* the continuation that is local to kt_loop (`next`), and the loop body in terms of it *)
Definition kt_next (f : nat) (v : Z) (le : bool) (r : bytes) (acc : list entry) : res (list entry) :=
  if (length r <? 4)%nat then Ok acc
  else match read_int 4 le r with
       | Ok (l', r'') => kt_loop f v le l' r'' acc
       | Err c => Err c
       | Panic s => Panic s
       end.

Lemma kt_loop_unfold f v le l r acc :
  kt_loop (S f) v le l r acc =
    if l =? 0 then Ok acc
    else if l <? 0 then
      let h := sint 32 (- l) in
      if h <? 0 then Ok acc
      else if zlen r <? h then Ok acc
      else kt_next f v le (skipn (Z.to_nat h) r) acc
    else
      if zlen r <? l then Err 3
      else
        match parse_entry v le (firstn (Z.to_nat l) r) with
        | Ok e => kt_next f v le (skipn (Z.to_nat l) r) (acc ++ [e])
        | Err c => Err c
        | Panic s => Panic s
        end.
Proof. reflexivity. Qed.
