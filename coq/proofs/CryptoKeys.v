(* Key derivation facts for C08: DES3 parity, UTF-16LE, PA-data precedence, generated key sizes. *)
From Coq Require Import Permutation.
From Gokrb5.lib Require Import Bytes JV.
From Gokrb5.prim Require HMAC AES.
From Gokrb5.model Require Import Crypto PAData.
Open Scope Z_scope.

Definition odd_parity (b : Z) : bool :=
  Z.odd (fold_left (fun acc i => acc + (if Z.testbit b i then 1 else 0)) [0;1;2;3;4;5;6;7] 0).

Theorem parity_fix_odd b : 0 <= b < 256 -> odd_parity (parity_fix b) = true.
Proof. apply (AES.forall_bytes (fun b => odd_parity (parity_fix b))). vm_compute. reflexivity. Qed.

Lemma stretch56_length b : length (stretch56 b) = S (length b).
Proof. unfold stretch56. rewrite app_length, map_length. cbn. lia. Qed.

Lemma fix_weak_length k : length k = 8%nat -> length (fix_weak k) = 8%nat.
Proof.
  intros H. unfold fix_weak. destruct (existsb (beq_bytes k) des_weak_keys); [|exact H].
  rewrite app_length, firstn_length, H. reflexivity.
Qed.

Lemma slice_length_le {A} (l : list A) lo hi : (length (slice l lo hi) <= Z.to_nat (hi - lo))%nat.
Proof. unfold slice. rewrite firstn_length. lia. Qed.

Lemma des3_random_to_key_parts b : (21 <= length b)%nat ->
  exists p1 p2 p3, length p1 = 8%nat /\ length p2 = 8%nat /\ length p3 = 8%nat /\
    des3_random_to_key b = fix_weak p1 ++ fix_weak p2 ++ fix_weak p3.
Proof.
  intros H. exists (stretch56 (slice b 0 7)), (stretch56 (slice b 7 14)), (stretch56 (slice b 14 21)).
  rewrite !stretch56_length, !slice_length by (unfold zlen; lia). repeat split.
Qed.

Theorem des3_random_to_key_length_21 b : (21 <= length b)%nat -> length (des3_random_to_key b) = 24%nat.
Proof.
  intros H. destruct (des3_random_to_key_parts b H) as (p1 & p2 & p3 & L1 & L2 & L3 & ->).
  rewrite !app_length, !fix_weak_length by assumption. reflexivity.
Qed.

Theorem utf16le_length runes :
  Forall (fun r => 0 <= r < 1114112) runes ->
  length (utf16le runes) = (2 * length (filter (fun r => (r <? 65536)%Z) runes)
                            + 4 * length (filter (fun r => negb (r <? 65536)%Z) runes))%nat.
Proof.
  induction 1 as [|r rs Hr Hrs IH]; [reflexivity|].
  unfold utf16le in *. cbn [flat_map filter]. rewrite app_length, IH.
  destruct (r <? 65536); cbn [negb length].
  - rewrite le_bytes_length. lia.
  - rewrite app_length, !le_bytes_length. lia.
Qed.

(* a hint that cannot change a state decided by a hint of type id: a less specific one, or no hint at all *)
Definition inert (id : Z) (h : hint) : Prop :=
  match h with HOther _ => True | _ => hint_type h < id end.

Lemma pa_step_inert req s h : inert (ps_id s) h -> pa_step req s h = Ok s.
Proof.
  destruct h as [salt|es|es|t]; cbn [inert pa_step hint_type]; intros H; [| | |reflexivity].
  - destruct (Z.ltb_spec 3 (ps_id s)); [reflexivity|lia].
  - destruct (Z.ltb_spec 11 (ps_id s)); [reflexivity|lia].
  - destruct (Z.ltb_spec 19 (ps_id s)); [reflexivity|lia].
Qed.

Lemma pa_fold_inert req hs : forall s, Forall (inert (ps_id s)) hs -> pa_fold req s hs = Ok s.
Proof.
  induction hs as [|h r IH]; intros s H; [reflexivity|].
  apply Forall_cons_iff in H. destruct H as [Hh Hr].
  cbn [pa_fold]. rewrite pa_step_inert by exact Hh. apply IH, Hr.
Qed.

Theorem pa_step_skip_lower req s h s' :
  pa_step req s h = Ok s' -> hint_type h < ps_id s ->
  (hint_type h = 3 \/ hint_type h = 11 \/ hint_type h = 19) -> s' = s.
Proof.
  intros E Hlt _. rewrite pa_step_inert in E by (destruct h; cbn [inert]; auto). congruence.
Qed.

Definition simple (h : hint) : Prop :=
  match h with
  | HInfo ((e0, _) :: _) => known_etype e0 = true
  | HInfo2 ((e0, _, _) :: _) => known_etype e0 = true
  | _ => True
  end.

(* at most one hint of each type, and the etypes the hints name are supported ones *)
Definition hints_simple (hs : list hint) : Prop :=
  NoDup (map hint_type hs) /\ Forall simple hs.

Definition step2 (req : Z) (s : pastate) (h1 h2 : hint) : res pastate :=
  bind (pa_step req s h1) (fun s1 => pa_step req s1 h2).

Lemma pastate_eta s : s = mkPS (ps_et s) (ps_salt s) (ps_params s) (ps_id s).
Proof. destruct s; reflexivity. Qed.

(* the default parameters in force are those of the etype selected (until ETYPE-INFO2 has spoken) *)
Definition pinv (s : pastate) : Prop := 19 <= ps_id s \/ ps_params s = default_s2kparams (ps_et s).

Lemma dflt_norm s e : ps_params s = default_s2kparams (ps_et s) ->
  (if ps_et s =? e then ps_params s else default_s2kparams e) = default_s2kparams e.
Proof. intros H. destruct (Z.eqb_spec (ps_et s) e); [subst; exact H|reflexivity]. Qed.
Lemma dflt_norm2 e1 e2 : (if e1 =? e2 then default_s2kparams e1 else default_s2kparams e2) = default_s2kparams e2.
Proof. destruct (Z.eqb_spec e1 e2); [subst|]; reflexivity. Qed.

Lemma pa_step_pinv req s h s' : pinv s -> pa_step req s h = Ok s' -> pinv s'.
Proof.
  intros Hi E. destruct h as [a|[|[e1 a1] es1]|[|[[e1 a1] p1] es1]|t1]; cbn [pa_step] in E.
  - destruct (Z.ltb_spec 3 (ps_id s)); injection E as <-; [exact Hi|].
    destruct Hi as [Hi|Hi]; [lia|right; exact Hi].
  - destruct (11 <? ps_id s); injection E as <-; exact Hi.
  - destruct (Z.ltb_spec 11 (ps_id s)); [injection E as <-; exact Hi|].
    destruct (negb (ps_et s =? e1) && negb (known_etype e1)); [discriminate|]. injection E as <-.
    destruct Hi as [Hi|Hi]; [lia|]. right. cbn [ps_params ps_et]. apply dflt_norm; exact Hi.
  - destruct (19 <? ps_id s); injection E as <-; exact Hi.
  - destruct (Z.ltb_spec 19 (ps_id s)); [injection E as <-; exact Hi|].
    destruct (negb (ps_et s =? e1) && negb (known_etype e1)); [discriminate|]. injection E as <-.
    left. cbn [ps_id]. lia.
  - injection E as <-; exact Hi.
Qed.

(* By cases on the two hint shapes.  Where both steps act the more specific hint overrides etype and salt; the
   parameters agree only because those in force were the defaults of the selected etype (pinv, via dflt_norm):
   any other string would survive in one order and be replaced by a default in the other. *)
Lemma pa_step_commute req s h1 h2 :
  pinv s -> simple h1 -> simple h2 -> hint_type h1 <> hint_type h2 ->
  step2 req s h1 h2 = step2 req s h2 h1.
Proof.
  intros Hi S1 S2 Hne. unfold step2.
  destruct h1 as [a|[|[e1 a1] es1]|[|[[e1 a1] p1] es1]|t1];
  destruct h2 as [b|[|[e2 b2] es2]|[|[[e2 b2] p2] es2]|t2];
  cbn [pa_step hint_type simple] in *;
  try congruence;
  rewrite ?S1, ?S2, ?andb_false_r; cbn [negb andb bind];
  repeat match goal with
         | |- context [?x <? ps_id s] => destruct (Z.ltb_spec x (ps_id s))
         end; cbn [bind pa_step ps_id ps_et ps_salt ps_params Z.ltb Z.compare Pos.compare Pos.compare_cont];
  rewrite ?S1, ?S2, ?andb_false_r; cbn [negb andb bind];
  repeat match goal with
         | |- context [?x <? ps_id s] => destruct (Z.ltb_spec x (ps_id s))
         end;
  try lia; try reflexivity.
  all: destruct Hi as [Hi|Hi]; [lia|].
  all: rewrite ?(dflt_norm s _ Hi), ?dflt_norm2; try reflexivity.
Qed.

Lemma pa_fold_cons req s h r :
  pa_fold req s (h :: r) = bind (pa_step req s h) (fun s' => pa_fold req s' r).
Proof. reflexivity. Qed.

Lemma pa_fold_two req s h1 h2 r :
  pa_fold req s (h1 :: h2 :: r) = bind (step2 req s h1 h2) (fun s' => pa_fold req s' r).
Proof. unfold step2. cbn [pa_fold]. destruct (pa_step req s h1); reflexivity. Qed.

Lemma pa_fold_perm req hs hs' :
  Permutation hs hs' -> hints_simple hs -> forall s, pinv s -> pa_fold req s hs = pa_fold req s hs'.
Proof.
  induction 1 as [|h l l' Hp IH|h1 h2 l|l l' l'' H1 IH1 H2 IH2]; intros [Hnd Hs] s Hi.
  - reflexivity.
  - rewrite !pa_fold_cons. cbn [map] in Hnd. inversion Hnd; inversion Hs; subst.
    destruct (pa_step req s h) eqn:E; cbn [bind]; auto. apply IH; [split; assumption|].
    eapply pa_step_pinv; eassumption.
  - cbn [map] in Hnd.
    inversion Hnd as [|? ? Hn1 Hnd']; subst. inversion Hs as [|? ? S1 Hs']; subst. inversion Hs' as [|? ? S2 Hs'']; subst.
    assert (hint_type h2 <> hint_type h1) as Hne by (intros E; apply Hn1; left; symmetry; exact E).
    rewrite !pa_fold_two, (pa_step_commute req s h2 h1 Hi S1 S2 Hne). reflexivity.
  - rewrite IH1 by (try split; assumption). apply IH2; [|assumption]. split.
    + eapply Permutation_NoDup; [apply Permutation_map; exact H1|exact Hnd].
    + eapply Permutation_Forall; eauto.
Qed.

Theorem padata_order_irrelevant pw names realm req hs hs' :
  hints_simple hs -> Permutation hs hs' ->
  key_from_password pw names realm req hs = key_from_password pw names realm req hs'.
Proof.
  intros Hs Hp. unfold key_from_password. destruct (negb (known_etype req)); [reflexivity|].
  rewrite (pa_fold_perm req hs hs' Hp Hs); [reflexivity|]. right. reflexivity.
Qed.

(* RFC 4120 5.2.7.5 precedence: an ETYPE-INFO2 hint, wherever it stands, alone decides etype, salt and
   parameters; without one an ETYPE-INFO hint decides etype and salt; without either PW-SALT gives the salt *)

(* by pa_fold_perm the deciding hint may be taken first *)
Lemma pa_fold_decided req s0 hs h s1 :
  hints_simple hs -> pinv s0 -> In h hs -> pa_step req s0 h = Ok s1 ->
  (forall h', In h' hs -> hint_type h' <> hint_type h -> inert (ps_id s1) h') ->
  pa_fold req s0 hs = Ok s1.
Proof.
  intros Hs Hi Hin E Hinert. destruct (in_split _ _ Hin) as (l1 & l2 & ->).
  assert (Permutation (l1 ++ h :: l2) (h :: l1 ++ l2)) as P by (symmetry; apply Permutation_middle).
  rewrite (pa_fold_perm req _ _ P Hs s0 Hi). cbn [pa_fold]. rewrite E.
  destruct Hs as [Hnd _].
  assert (NoDup (map hint_type (h :: l1 ++ l2))) as Hnd'
    by (eapply Permutation_NoDup; [apply Permutation_map; exact P|exact Hnd]).
  cbn [map] in Hnd'. apply NoDup_cons_iff in Hnd'. destruct Hnd' as [Hni _].
  apply pa_fold_inert, Forall_forall. intros h' Hh'. apply Hinert.
  - apply (Permutation_in _ (Permutation_sym P)). right. exact Hh'.
  - intros Et. apply Hni. rewrite <- Et. apply in_map, Hh'.
Qed.

Definition info2_params (p0 : option bytes) (dflt : bytes) : bytes :=
  match p0 with Some p => if (length p =? 4)%nat then hex_of_bytes p else dflt | None => dflt end.

Theorem padata_info2_decides req s0 hs e sl p0 es :
  hints_simple hs -> ps_id s0 <= 19 -> ps_params s0 = default_s2kparams (ps_et s0) ->
  In (HInfo2 ((e, sl, p0) :: es)) hs ->
  pa_fold req s0 hs = Ok (mkPS e sl (info2_params p0 (default_s2kparams e)) 19).
Proof.
  intros Hs Hid Hp0 Hin.
  assert (simple (HInfo2 ((e, sl, p0) :: es))) as Hk by (destruct Hs as [_ Hf]; rewrite Forall_forall in Hf; apply Hf, Hin).
  cbn [simple] in Hk.
  apply (pa_fold_decided req s0 hs _ _ Hs (or_intror Hp0) Hin).
  - cbn [pa_step]. destruct (Z.ltb_spec 19 (ps_id s0)); [lia|].
    rewrite Hk, andb_false_r, (dflt_norm s0 e Hp0). reflexivity.
  - intros [a|es'|es'|t] _ Ht; cbn [inert hint_type ps_id] in *; lia || exact I.
Qed.

Theorem padata_info_decides req s0 hs e sl es :
  hints_simple hs -> ps_id s0 <= 11 -> ps_params s0 = default_s2kparams (ps_et s0) ->
  In (HInfo ((e, sl) :: es)) hs -> (forall es2, ~ In (HInfo2 es2) hs) ->
  pa_fold req s0 hs = Ok (mkPS e sl (default_s2kparams e) 11).
Proof.
  intros Hs Hid Hp0 Hin Hno2.
  assert (simple (HInfo ((e, sl) :: es))) as Hk by (destruct Hs as [_ Hf]; rewrite Forall_forall in Hf; apply Hf, Hin).
  cbn [simple] in Hk.
  apply (pa_fold_decided req s0 hs _ _ Hs (or_intror Hp0) Hin).
  - cbn [pa_step]. destruct (Z.ltb_spec 11 (ps_id s0)); [lia|].
    rewrite Hk, andb_false_r, (dflt_norm s0 e Hp0). reflexivity.
  - intros [a|es'|es'|t] Hh Ht; cbn [inert hint_type ps_id] in *; [lia|lia|destruct (Hno2 es' Hh)|exact I].
Qed.

(* The code as pinned: the same two hints in the two orders gave different states (and so different keys). *)
Theorem padata_pinned_order_matters_refuted :
  let hs := [HInfo [(23, [2])]; HInfo2 [(17, [3], Some [0;0;0;5])]] in
  hints_simple hs /\ Permutation hs (rev hs) /\
  pa_fold_pinned 17 (mkPS 17 [] (default_s2kparams 17) 0) hs <> pa_fold_pinned 17 (mkPS 17 [] (default_s2kparams 17) 0) (rev hs) /\
  pa_fold 17 (mkPS 17 [] (default_s2kparams 17) 0) hs = pa_fold 17 (mkPS 17 [] (default_s2kparams 17) 0) (rev hs).
Proof.
  cbn zeta. split; [|split; [apply Permutation_rev|split; [vm_compute; discriminate|reflexivity]]].
  split; [cbn; repeat constructor; cbn; intuition discriminate|repeat constructor].
Qed.

(* non-vacuity: all three hints, naming different etypes, two orders, same state; INFO2 wins *)
Example padata_example :
  let hs := [HSalt [1]; HInfo [(23, [2])]; HInfo2 [(18, [3], Some [0;0;0;5])]] in
  hints_simple hs /\
  pa_fold 18 (mkPS 18 [] (default_s2kparams 18) 0) hs = Ok (mkPS 18 [3] [48;48;48;48;48;48;48;53] 19) /\
  pa_fold 18 (mkPS 18 [] (default_s2kparams 18) 0) (rev hs) = Ok (mkPS 18 [3] [48;48;48;48;48;48;48;53] 19) /\
  pa_fold 23 (mkPS 23 [] (default_s2kparams 23) 0) (rev hs) = Ok (mkPS 18 [3] [48;48;48;48;48;48;48;53] 19).
Proof.
  split; [|split; [|split]; reflexivity]. split.
  - cbn. repeat constructor; cbn; intuition discriminate.
  - repeat constructor.
Qed.

Lemma derive_key_ok_len et key c :
  In et [16; 17; 18; 19; 20; 23] -> length key = key_len et -> exists k, derive_key et key c = Ok k.
Proof.
  intros Hin Hl. cbn [In] in Hin. destruct Hin as [<-|[<-|[<-|[<-|[<-|[<-|[]]]]]]];
    unfold derive_key, et_family, key_len in *; cbn [Z.eqb Pos.eqb orb] in *;
    rewrite ?Hl; cbn [Nat.eqb negb]; eauto.
Qed.

Theorem generated_key_usable et key usage conf msg :
  In et [16; 17; 18; 19; 20; 23] -> length key = key_len et ->
  exists c, encrypt_with et key usage conf msg = Ok c.
Proof.
  intros Hin Hl.
  destruct (derive_key_ok_len et key (usage_const usage 170) Hin Hl) as [ke Eke].
  destruct (derive_key_ok_len et key (usage_const usage 85) Hin Hl) as [ki Eki].
  unfold encrypt_with, integrity_hash. rewrite ?Eke, ?Eki.
  cbn [In] in Hin. destruct Hin as [<-|[<-|[<-|[<-|[<-|[<-|[]]]]]]];
    unfold et_family, key_len in *; cbn [Z.eqb Pos.eqb orb] in *; rewrite ?Hl; cbn [Nat.eqb negb bind];
    rewrite ?Eke, ?Eki; cbn [bind]; eauto.
  unfold rc4_encrypt. rewrite HMAC.hmac_md5_length. cbn [Nat.eqb negb]. eauto.
Qed.
