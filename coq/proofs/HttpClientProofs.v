(* Client.Do terminates after a bounded number of requests for every server script. *)
From Gokrb5.lib Require Import Bytes JV.
From Gokrb5.model Require Import HttpClient.
Open Scope nat_scope.

(* a request that does not end the call either answers a challenge (authed goes from false to true) or follows one
   of at most 10 redirects (authed back to false); from a fresh client 2 * 10 + 1, and the last request: 22 *)
Definition measure (redirects : nat) (authed : bool) : nat :=
  2 * (10 - redirects) + (if authed then 0 else 1).

Definition sent_of (o : outcome) : list bool :=
  match o with Final _ fl => fl | TooManyRedirects fl => fl | OutOfFuel => [] end.

Lemma do_bounded : forall fuel script i redirects authed sent,
  measure redirects authed < fuel ->
  do_ fuel script i redirects authed sent <> OutOfFuel /\
  length (sent_of (do_ fuel script i redirects authed sent)) <= length sent + measure redirects authed + 1.
Proof.
  induction fuel as [|f IH]; intros script i redirects authed sent Hm; [lia|].
  cbn [do_].
  (* this request is the last *)
  assert (forall o, sent_of o = sent ++ [authed] -> o <> OutOfFuel ->
            o <> OutOfFuel /\ length (sent_of o) <= length sent + measure redirects authed + 1) as Hlast.
  { intros o E Hn. split; [exact Hn|]. rewrite E, app_length. cbn [length]. lia. }
  (* another request follows, in a state of smaller measure *)
  assert (forall redirects' authed', measure redirects' authed' < measure redirects authed ->
            do_ f script (S i) redirects' authed' (sent ++ [authed]) <> OutOfFuel /\
            length (sent_of (do_ f script (S i) redirects' authed' (sent ++ [authed])))
              <= length sent + measure redirects authed + 1) as Hnext.
  { intros r' a' Hlt. destruct (IH script (S i) r' a' (sent ++ [authed])) as [A B]; [lia|].
    split; [exact A|]. rewrite app_length in B. cbn [length] in B. lia. }
  destruct (script i); try (apply Hlast; [reflexivity|discriminate]).
  - destruct authed; [apply Hlast; [reflexivity|discriminate]|]. apply Hnext. unfold measure. lia.
  - destruct (Nat.leb_spec 10 (redirects + 1)); [apply Hlast; [reflexivity|discriminate]|].
    apply Hnext. unfold measure. destruct authed; lia.
Qed.

(* For every sequence of server responses the call returns (the server's final response or an error) after at
   most 22 requests, starting from a fresh client. *)
Theorem do_terminates script :
  exists o, do_ 64 script 0 0 false [] = o /\ o <> OutOfFuel /\ length (sent_of o) <= 22.
Proof.
  eexists; split; [reflexivity|].
  destruct (do_bounded 64 script 0 0 false []) as [A B]; [cbn; lia|].
  split; [exact A|]. change (length (@nil bool) + measure 0 false + 1) with 22 in B. exact B.
Qed.

(* from any state, with any fuel above the measure: the fuel 64 of the executable model is not a cut-off *)
Theorem do_terminates_general fuel script i redirects authed sent :
  measure redirects authed < fuel ->
  do_ fuel script i redirects authed sent <> OutOfFuel /\
  length (sent_of (do_ fuel script i redirects authed sent)) <= length sent + 2 * (10 - redirects) + 2.
Proof.
  intros H. destruct (do_bounded fuel script i redirects authed sent H) as [A B].
  split; [exact A|]. unfold measure in B. destruct authed; lia.
Qed.

(* The pinned code diverges against a server that always answers a bare challenge. *)
Theorem do_pinned_diverges_refuted : forall fuel i redirects authed sent,
  do_pinned fuel (fun _ => R401Nego) i redirects authed sent = OutOfFuel.
Proof. induction fuel as [|f IH]; intros; cbn; [reflexivity|apply IH]. Qed.

Example do_example :
  do_ 64 (script_of [R401Nego; R302; R401Nego] R200) 0 0 false [] = Final R200 [false; true; false; true]
  /\ do_ 64 (script_of [] R401Nego) 0 0 false [] = Final R401Nego [false; true]
  /\ sent_of (do_ 64 (script_of [] R302) 0 0 false []) = repeat false 10.
Proof. repeat split. Qed.
