(* AES-CBC-CS3 (ciphertext stealing, RFC 3962 / 8009) round trip over an abstract 16-byte block cipher. *)
From Gokrb5.lib Require Import Bytes JV.
From Gokrb5.prim Require CBC.
From Gokrb5.model Require Import Crypto.
Import CBC.

Lemma zeros_length n : length (zeros n) = n.
Proof. apply repeatz_length. Qed.

Lemma zeros_wf n : wf_bytes (zeros n).
Proof. apply repeatz_wf. Qed.

Lemma zeros_blk n : blk n (zeros n).
Proof. apply blk_zeros. Qed.

Lemma xor_zeros_l n x : length x = n -> xor_bytes (zeros n) x = x.
Proof.
  revert x; induction n as [|n IH]; intros [|y x] H; cbn in *; try reflexivity; try lia.
  f_equal. apply IH. lia.
Qed.

Lemma xor_skipn k a b : skipn k (xor_bytes a b) = xor_bytes (skipn k a) (skipn k b).
Proof.
  revert a b; induction k as [|k IH]; intros a b; [reflexivity|].
  destruct a as [|x a], b as [|y b]; cbn [xor_bytes skipn]; try reflexivity.
  - now destruct (skipn k a).
  - apply IH.
Qed.

Lemma last_two_app (r : list bytes) p l : last_two (r ++ [p; l]) = Some (r, p, l).
Proof. unfold last_two. rewrite rev_app_distr. cbn. now rewrite rev_involutive. Qed.

Lemma last_default_irrelevant {A} (l : list A) d d' : l <> [] -> last l d = last l d'.
Proof.
  induction l as [|x l IH]; intros H; [congruence|].
  destruct l as [|y l]; [reflexivity|]. cbn [last] in *. apply IH. discriminate.
Qed.

Lemma last_cons_default {A} (l : list A) c d : last (c :: l) d = last l c.
Proof.
  destruct l as [|x l]; [reflexivity|].
  change (last (c :: x :: l) d) with (last (x :: l) d).
  apply last_default_irrelevant. discriminate.
Qed.

Lemma zpad_blocks n (body : list bytes) (t : bytes) :
  (0 < n)%nat -> Forall (fun b => length b = n) body -> (0 < length t <= n)%nat ->
  zpad n (concat body ++ t) = concat (body ++ [t ++ zeros (n - length t)]).
Proof.
  intros Hn Hbody Ht. unfold zpad.
  rewrite app_length, (concat_length_const n body Hbody), concat_app. cbn [concat]. rewrite app_nil_r, <- app_assoc.
  do 3 f_equal. rewrite Nat.add_comm, Nat.mod_add by lia.
  destruct (Nat.eq_dec (length t) n) as [->|Hk].
  - now rewrite Nat.mod_same, Nat.sub_0_r, Nat.mod_same, Nat.sub_diag by lia.
  - rewrite (Nat.mod_small (length t) n) by lia. apply Nat.mod_small. lia.
Qed.

(* ciphertext stealing: the missing tail of cp is where the padded t is zero in (t ++ zeros) xor cp *)
Lemma stolen_tail (t cp : bytes) :
  length cp = 16%nat -> (length t <= 16)%nat ->
  firstn (length t) cp ++ skipn (length t) (xor_bytes (t ++ zeros (16 - length t)) cp) = cp.
Proof.
  intros Hcp Ht. rewrite xor_skipn, skipn_app, skipn_all, Nat.sub_diag. cbn [skipn app].
  rewrite xor_zeros_l by (rewrite skipn_length, Hcp; reflexivity).
  apply firstn_skipn.
Qed.

Lemma blocks_view d : (16 < length d)%nat ->
  exists (body : list bytes) t, d = concat body ++ t /\ Forall (fun b => length b = 16%nat) body /\
    body <> [] /\ (0 < length t <= 16)%nat.
Proof.
  intros Hd. set (m := ((length d - 1) / 16)%nat).
  assert (Hm : (1 <= m /\ 16 * m < length d <= 16 * m + 16)%nat).
  { unfold m. pose proof (Nat.div_mod (length d - 1) 16 ltac:(lia)) as D.
    pose proof (Nat.mod_upper_bound (length d - 1) 16 ltac:(lia)) as U.
    pose proof (Nat.div_le_mono 16 (length d - 1) 16 ltac:(lia) ltac:(lia)) as Q.
    rewrite Nat.div_same in Q by lia. lia. }
  clearbody m.
  assert (Hhd : length (firstn (m * 16) d) = (m * 16)%nat) by (rewrite firstn_length; lia).
  exists (chunks 16 (firstn (m * 16) d)), (skipn (m * 16) d). repeat split.
  - rewrite concat_chunks by lia. symmetry. apply firstn_skipn.
  - apply (chunks_lengths 16 m); [lia|exact Hhd].
  - intros E. apply (f_equal (@concat Z)) in E. rewrite concat_chunks in E by lia. cbn [concat] in E.
    rewrite E in Hhd. cbn [length] in Hhd. lia.
  - rewrite skipn_length. lia.
  - rewrite skipn_length. lia.
Qed.

Lemma enc_blocks_snoc (enc : bytes -> bytes) prev (body : list bytes) lastb :
  cbc_enc_blocks enc prev (body ++ [lastb]) =
  cbc_enc_blocks enc prev body ++
    [enc (xor_bytes lastb (last (cbc_enc_blocks enc prev body) prev))].
Proof.
  revert prev; induction body as [|b body IH]; intros prev; cbn [app cbc_enc_blocks]; [reflexivity|].
  rewrite IH. cbn [app]. rewrite last_cons_default. reflexivity.
Qed.

(* Only lengths are asked, and only of the blocks that occur, so that the equation serves both where blocks are
   known to be well-formed (round trip) and where they are not (ciphertext length). *)
Lemma cts_encrypt_blocks (enc : bytes -> bytes) (body r : list bytes) (t cl1 : bytes) :
  let clast := enc (xor_bytes (t ++ zeros (16 - length t)) cl1) in
  Forall (fun b => length b = 16%nat) body -> (0 < length t <= 16)%nat ->
  cbc_enc_blocks enc (zeros 16) body = r ++ [cl1] ->
  Forall (fun b => length b = 16%nat) (r ++ [clast]) -> length cl1 = 16%nat ->
  cts_encrypt enc (concat body ++ t) = concat (r ++ [clast]) ++ firstn (length t) cl1.
Proof.
  intros clast Hbody Ht Ecs Hr Hcl1.
  set (tp := t ++ zeros (16 - length t)) in *.
  assert (Htp : length tp = 16%nat) by (unfold tp; rewrite app_length, zeros_length; lia).
  assert (Hn : length (concat body ++ t) = (length body * 16 + length t)%nat)
    by (rewrite app_length, (concat_length_const 16 body Hbody); reflexivity).
  assert (Hlenr : length body = S (length r)).
  { apply (f_equal (@length bytes)) in Ecs. rewrite cbc_enc_blocks_count, app_length in Ecs. cbn in Ecs. lia. }
  assert (Lr : length (concat (r ++ [clast])) = (length body * 16)%nat)
    by (rewrite (concat_length_const 16 _ Hr), app_length, Hlenr; cbn [length]; lia).
  unfold cts_encrypt. rewrite zpad_blocks by (assumption || lia). fold tp. unfold cbc_encrypt.
  rewrite chunks_of_concat by (try apply Forall_app; auto; lia).
  destruct (Nat.leb_spec (length (concat body ++ t)) 16) as [Hle|_]; [lia|].
  rewrite enc_blocks_snoc, Ecs, last_last. fold clast.
  rewrite <- app_assoc. cbn [app].
  rewrite chunks_of_concat, last_two_app.
  - change [clast; cl1] with ([clast] ++ [cl1]). rewrite app_assoc, concat_app. cbn [concat]. rewrite app_nil_r.
    rewrite firstn_app, Hn, Lr, firstn_all2 by lia. do 2 f_equal. lia.
  - lia.
  - apply Forall_app in Hr. destruct Hr as [Hr Hc]. apply Forall_app. split; [exact Hr|].
    constructor; [exact Hcl1|exact Hc].
Qed.

Lemma cts_encrypt_length (enc : bytes -> bytes) :
  (forall b, length b = 16%nat -> length (enc b) = 16%nat) ->
  forall d, (16 <= length d)%nat -> length (cts_encrypt enc d) = length d.
Proof.
  intros enc_length d Hd. destruct (Nat.eq_dec (length d) 16) as [E16|N16].
  - unfold cts_encrypt, zpad. rewrite E16. cbn [Nat.leb].
    replace ((16 - 16 mod 16) mod 16)%nat with 0%nat by reflexivity. change (zeros 0) with (@nil Z). rewrite app_nil_r.
    rewrite (cbc_encrypt_length enc 16 enc_length (zeros 16) d 1); [exact E16|lia|apply zeros_length|lia].
  - destruct (blocks_view d ltac:(lia)) as (body & t & -> & Hbody & Hne & Ht).
    pose proof (cbc_enc_blocks_lengths enc 16 enc_length (zeros 16) body (zeros_length 16) Hbody) as Hcs.
    destruct (exists_last (l := cbc_enc_blocks enc (zeros 16) body)) as (r & cl1 & Ecs).
    { destruct body; [congruence|discriminate]. }
    rewrite Ecs in Hcs. apply Forall_app in Hcs. destruct Hcs as [Hr Hcl1]. apply Forall_inv in Hcl1.
    assert (Hrc : Forall (fun b => length b = 16%nat) (r ++ [enc (xor_bytes (t ++ zeros (16 - length t)) cl1)])).
    { apply Forall_app. split; [exact Hr|]. constructor; [|constructor].
      apply enc_length. rewrite xor_bytes_length_eq; rewrite app_length, zeros_length; lia. }
    rewrite (cts_encrypt_blocks enc body r t cl1 Hbody Ht Ecs Hrc Hcl1).
    apply (f_equal (@length bytes)) in Ecs. rewrite cbc_enc_blocks_count, app_length in Ecs.
    rewrite !app_length, (concat_length_const 16 _ Hrc), (concat_length_const 16 _ Hbody), app_length, firstn_length.
    cbn [length] in *. lia.
Qed.

Section CTSBlocks.
  Variables enc dec : bytes -> bytes.
  Hypothesis C : cipher 16 enc dec.

  Theorem cts_roundtrip_blocks (body : list bytes) (t : bytes) :
    Forall (blk 16) body -> body <> [] -> (0 < length t <= 16)%nat -> wf_bytes t ->
    cts_decrypt dec (cts_encrypt enc (concat body ++ t)) = Ok (concat body ++ t).
  Proof.
    intros Bbody Hne Ht Wt.
    pose proof (blks_lengths 16 body Bbody) as Hbody.
    set (tp := t ++ zeros (16 - length t)).
    assert (Btp : blk 16 tp).
    { split; [unfold tp; rewrite app_length, zeros_length; lia | apply wf_bytes_app; split; [exact Wt|apply zeros_wf]]. }
    assert (Hn : length (concat body ++ t) = (length body * 16 + length t)%nat)
      by (rewrite app_length, (concat_length_const 16 body Hbody); reflexivity).
    assert (Hb1 : (1 <= length body)%nat) by (destruct body; [congruence|cbn; lia]).
    (* ciphertext blocks: r ++ [cl1] for the body (non-empty as body is), then clast *)
    pose proof (cbc_enc_blocks_blk enc dec 16 C (zeros 16) body (zeros_blk 16) Bbody) as Bcs.
    destruct (exists_last (l := cbc_enc_blocks enc (zeros 16) body)) as (r & cl1 & Ecs).
    { destruct body; [congruence|discriminate]. }
    rewrite Ecs in Bcs. apply Forall_app in Bcs. destruct Bcs as [Br Bcl1]. apply Forall_inv in Bcl1.
    destruct (C _ (blk_xor 16 tp cl1 Btp Bcl1)) as [Bclast Dclast].
    set (clast := enc (xor_bytes tp cl1)) in *.
    assert (Brc : Forall (blk 16) (r ++ [clast])) by (apply Forall_app; auto).
    pose proof (blks_lengths 16 _ Brc) as Hr. destruct Bcl1 as [Hcl1 Wcl1].
    rewrite (cts_encrypt_blocks enc body r t cl1 Hbody Ht Ecs Hr Hcl1). fold tp clast.
    assert (Lr : length (concat (r ++ [clast])) = (length body * 16)%nat).
    { apply (f_equal (@length bytes)) in Ecs. rewrite cbc_enc_blocks_count, app_length in Ecs.
      rewrite (concat_length_const 16 _ Hr), app_length. cbn [length] in *. lia. }
    unfold cts_decrypt.
    rewrite app_length, Lr, firstn_length, Hcl1, (Nat.min_l (length t) 16) by lia.
    destruct (Nat.ltb_spec (length body * 16 + length t) 16); [lia|].
    destruct (Nat.eqb_spec (length body * 16 + length t) 16); [lia|].
    rewrite chunks_app_full, chunks_short by (assumption || rewrite ?firstn_length, ?Hcl1; lia).
    rewrite <- app_assoc. cbn [app]. rewrite last_two_app.
    (* the stolen tail is recovered from dec clast *)
    rewrite firstn_length, Hcl1, (Nat.min_l (length t) 16) by lia.
    rewrite Dclast. unfold tp. rewrite stolen_tail by (assumption || lia).
    (* now an ordinary CBC decryption of the un-swapped ciphertext, which is that of body ++ [tp] *)
    unfold cbc_decrypt.
    match goal with |- context [chunks 16 (concat ?l)] =>
      replace l with (cbc_enc_blocks enc (zeros 16) (body ++ [tp]))
        by (rewrite enc_blocks_snoc, Ecs, last_last, <- app_assoc; reflexivity) end.
    assert (Bblocks : Forall (blk 16) (body ++ [tp])) by (apply Forall_app; auto).
    rewrite chunks_of_concat by (auto using blks_lengths, (cbc_enc_blocks_blk enc dec 16 C), zeros_blk; lia).
    rewrite (cbc_dec_enc_blocks_blk enc dec 16 C) by (apply zeros_blk || exact Bblocks).
    f_equal. rewrite concat_app. cbn [concat]. rewrite app_nil_r. unfold tp. rewrite app_assoc.
    rewrite <- Hn. rewrite firstn_app, Nat.sub_diag. cbn [firstn]. rewrite app_nil_r. apply firstn_all.
  Qed.

  Theorem cts_roundtrip_cipher d : (16 <= length d)%nat -> wf_bytes d -> cts_decrypt dec (cts_encrypt enc d) = Ok d.
  Proof.
    intros Hlen Wd. destruct (Nat.eq_dec (length d) 16) as [E16|N16].
    - (* exactly one block: plain CBC *)
      unfold cts_encrypt, zpad. rewrite E16. cbn [Nat.modulo Nat.leb].
      replace ((16 - 16 mod 16) mod 16)%nat with 0%nat by reflexivity.
      unfold zeros at 2. cbn [repeat]. rewrite app_nil_r.
      assert (length (cbc_encrypt enc 16 (zeros 16) d) = 16%nat) as L
        by (rewrite (cbc_encrypt_length_blk enc dec 16 C (zeros 16) d 1); [exact E16|lia|apply zeros_blk|lia|exact Wd]).
      unfold cts_decrypt. rewrite L. cbn [Nat.ltb Nat.leb Nat.eqb].
      rewrite (cbc_decrypt_encrypt_blk enc dec 16 C (zeros 16) d 1);
        [reflexivity|lia|apply zeros_blk|lia|exact Wd].
    - destruct (blocks_view d ltac:(lia)) as (body & t & -> & Hbody & Hne & Ht).
      apply wf_bytes_app in Wd. destruct Wd as [Wb Wt]. apply Forall_concat in Wb.
      apply cts_roundtrip_blocks; [apply Forall_and; assumption|exact Hne|exact Ht|exact Wt].
  Qed.
End CTSBlocks.

Section CTS.
  Variables enc dec : bytes -> bytes.
  Hypothesis dec_enc : forall b, length b = 16%nat -> wf_bytes b -> dec (enc b) = b.
  Hypothesis enc_length : forall b, length b = 16%nat -> length (enc b) = 16%nat.
  Hypothesis enc_wf : forall b, length b = 16%nat -> wf_bytes b -> wf_bytes (enc b).

  Theorem cts_roundtrip d : (16 <= length d)%nat -> wf_bytes d -> cts_decrypt dec (cts_encrypt enc d) = Ok d.
  Proof. apply cts_roundtrip_cipher, cipher_intro; assumption. Qed.
End CTS.
