(* Message-level round trip: whatever `encrypt_with` produces, `decrypt` with the same key and usage returns
   the plaintext — for the AES profiles (RFC 3962 / 8009, ciphertext stealing), DES3 (RFC 3961) and RC4
   (RFC 4757). No hypothesis on the ciphers: AES and triple-DES decryption are proved to invert encryption
   (prim/AESInverse.v, prim/DESInverse.v); the premises only say that keys and data are byte strings. *)
From Gokrb5.lib Require Import Bytes JV.
From Gokrb5.prim Require CBC HMAC RC4 AES DES AESInverse DESInverse.
From Gokrb5.model Require Import Crypto.
From Gokrb5.proofs Require Export CryptoBasic.
From Gokrb5.proofs Require Import CTSProofs CryptoWf.
Import CBC.

Lemma zpad_length bs d : (0 < bs)%nat -> exists k, length (zpad bs d) = (k * bs)%nat /\ (length d <= k * bs)%nat.
Proof.
  intros Hbs. unfold zpad. rewrite app_length, zeros_length.
  pose proof (Nat.div_mod (length d) bs ltac:(lia)) as D.
  pose proof (Nat.mod_upper_bound (length d) bs ltac:(lia)) as U.
  destruct (Nat.eq_dec (length d mod bs) 0) as [E|N].
  - exists (length d / bs)%nat. rewrite E in *. rewrite Nat.sub_0_r, Nat.mod_same by lia. lia.
  - exists (S (length d / bs)). rewrite (Nat.mod_small (bs - length d mod bs) bs) by lia. lia.
Qed.

Lemma integrity_hash_length et key usage d ih :
  integrity_hash et key usage d = Ok ih -> length ih = mac_len et.
Proof.
  unfold integrity_hash. destruct (derive_key et key _); cbn [bind]; try discriminate.
  intros H. injection H as <-. rewrite firstn_length. apply Nat.min_l. apply et_hmac_length.
Qed.

Lemma aes_ecb_length ke b : length b = 16%nat -> length (aes_ecb ke b) = 16%nat.
Proof. unfold aes_ecb. apply AES.aes_encrypt_rk_length. Qed.

Lemma aes_sealed et key usage conf msg ct :
  aes_family et -> length conf = 16%nat -> wf_bytes key -> wf_bytes conf -> wf_bytes msg ->
  encrypt_with et key usage conf msg = Ok ct ->
  exists ke c ih,
    length key = key_len et /\ derive_key et key (usage_const usage 170) = Ok ke /\
    ct = c ++ ih /\ length c = (16 + length msg)%nat /\ length ih = mac_len et /\
    cts_decrypt (aes_ecb_dec ke) c = Ok (conf ++ msg) /\
    integrity_hash et key usage (aes_mac_input et (conf ++ msg) c) = Ok ih.
Proof.
  intros Hf Hc Wk Wc Wm E. destruct (encrypt_with_aes _ _ _ _ _ _ Hf E) as (Hk & ke & ih & Ek & Ei & ->).
  assert (Lpt : (16 <= length (conf ++ msg))%nat) by (rewrite app_length; lia).
  assert (Wke : wf_bytes ke) by exact (derive_key_aes_wf et key _ ke Hf Wk (usage_const_nonempty _ _) Ek).
  exists ke, (cts_encrypt (aes_ecb ke) (conf ++ msg)), ih.
  split; [exact Hk|]. split; [exact Ek|]. split; [reflexivity|]. split; [|split; [|split; [|exact Ei]]].
  - rewrite (cts_encrypt_length (aes_ecb ke) (aes_ecb_length ke) _ Lpt), app_length, Hc. reflexivity.
  - exact (integrity_hash_length _ _ _ _ _ Ei).
  - apply (cts_roundtrip_cipher _ _ (aes_cipher ke Wke)); [exact Lpt | apply wf_bytes_app; auto].
Qed.

Theorem aes_roundtrip et key usage conf msg ct :
  aes_family et -> length conf = 16%nat ->
  wf_bytes key -> wf_bytes conf -> wf_bytes msg ->
  encrypt_with et key usage conf msg = Ok ct -> decrypt et key usage ct = Ok msg.
Proof.
  intros Hf Hc Wk Wc Wm E.
  destruct (aes_sealed _ _ _ _ _ _ Hf Hc Wk Wc Wm E) as (ke & c & ih & Hk & Ek & -> & Lc & Lih & Ed & Ei).
  rewrite (decrypt_aes _ _ _ _ Hf Hk). unfold aes_open. rewrite app_length, Lih, Ek. cbn [bind]. cbv zeta.
  destruct (Nat.ltb_spec (length c + mac_len et) (16 + mac_len et)); [lia|].
  replace (length c + mac_len et - mac_len et)%nat with (length c) by lia.
  rewrite firstn_app_exact, skipn_app_exact, Ed. cbn [bind]. rewrite Ei. cbn [bind]. rewrite beq_bytes_refl.
  rewrite <- Hc, skipn_app_exact. reflexivity.
Qed.

Theorem aes_sha1_roundtrip et key usage conf msg ct :
  et_family et = Some FAesSha1 -> length conf = 16%nat ->
  wf_bytes key -> wf_bytes conf -> wf_bytes msg ->
  encrypt_with et key usage conf msg = Ok ct -> decrypt et key usage ct = Ok msg.
Proof. intros Hf. apply aes_roundtrip. left. exact Hf. Qed.

Theorem aes_sha2_roundtrip et key usage conf msg ct :
  et_family et = Some FAesSha2 -> length conf = 16%nat ->
  wf_bytes key -> wf_bytes conf -> wf_bytes msg ->
  encrypt_with et key usage conf msg = Ok ct -> decrypt et key usage ct = Ok msg.
Proof. intros Hf. apply aes_roundtrip. right. exact Hf. Qed.

(* DES3: the RFC 3961 profile pads with zeros and the padding stays in the decrypted message *)
Lemma des3_inv ke b : length b = 8%nat -> wf_bytes b -> des3_ecb_dec ke (des3_ecb ke b) = b.
Proof. intros. unfold des3_ecb, des3_ecb_dec. now apply DESInverse.tdes_decrypt_encrypt_ks. Qed.

Lemma des3_ecb_wf ke b : wf_bytes (des3_ecb ke b).
Proof. unfold des3_ecb. apply DES.tdes_encrypt_ks_wf. Qed.

Lemma des3_ecb_length ke b : length (des3_ecb ke b) = 8%nat.
Proof. unfold des3_ecb. apply DES.tdes_encrypt_ks_length. Qed.

Lemma des3_cipher ke : cipher 8 (des3_ecb ke) (des3_ecb_dec ke).
Proof.
  apply cipher_intro; [apply des3_inv | intros; apply des3_ecb_length | intros; apply des3_ecb_wf].
Qed.

Theorem des3_roundtrip key usage conf msg ct :
  length conf = 8%nat -> wf_bytes conf -> wf_bytes msg ->
  encrypt_with 16 key usage conf msg = Ok ct ->
  decrypt 16 key usage ct = Ok (msg ++ zeros ((8 - length (conf ++ msg) mod 8) mod 8)).
Proof.
  intros Hc Wc Wm E. destruct (encrypt_with_des3 _ _ _ _ _ E) as (ke & ih & Ek & Ei & ->).
  set (pt := zpad 8 (conf ++ msg)) in *.
  pose proof (integrity_hash_length _ _ _ _ _ Ei) as Lih.
  destruct (zpad_length 8 (conf ++ msg) ltac:(lia)) as (k & Hk & Hle). fold pt in Hk.
  assert (Lc : length (cbc_encrypt (des3_ecb ke) 8 (zeros 8) pt) = length pt).
  { apply (cbc_encrypt_length (des3_ecb ke) 8 (fun b _ => des3_ecb_length ke b) (zeros 8) pt k); [lia|apply zeros_length|exact Hk]. }
  set (c := cbc_encrypt (des3_ecb ke) 8 (zeros 8) pt) in *.
  rewrite app_length in Hle.
  rewrite decrypt_des3. change 20%nat with (mac_len 16).
  rewrite app_length, Lih, Lc, Ek. cbn [bind].
  destruct (Nat.ltb_spec (length pt + mac_len 16) (8 + mac_len 16)); [lia|].
  replace (length pt + mac_len 16 - mac_len 16)%nat with (length c) by lia.
  rewrite Lc at 1. rewrite Hk at 1. rewrite Nat.mod_mul by lia. cbn [Nat.eqb negb].
  rewrite firstn_app_exact, skipn_app_exact. unfold c.
  rewrite (cbc_decrypt_encrypt_blk _ _ 8 (des3_cipher ke) (zeros 8) pt k);
    [|lia|apply zeros_blk|exact Hk|unfold pt, zpad; repeat (apply wf_bytes_app; split); auto using zeros_wf].
  rewrite Ei. cbn [bind]. rewrite beq_bytes_refl.
  unfold pt, zpad. rewrite <- app_assoc, <- Hc, skipn_app_exact. reflexivity.
Qed.

(* RC4: the stream cipher is an involution, with no hypothesis *)
Lemma rc4_prga_involutive data i j s : RC4.rc4_prga (RC4.rc4_prga data i j s) i j s = data.
Proof.
  revert i j s; induction data as [|d r IH]; intros i j s; cbn [RC4.rc4_prga]; [reflexivity|].
  rewrite IH. f_equal. apply lxor_cancel_r.
Qed.

Theorem rc4_involutive k d : RC4.rc4 k (RC4.rc4 k d) = d.
Proof. apply rc4_prga_involutive. Qed.

Theorem rc4_roundtrip key usage conf msg ct :
  length conf = 8%nat -> length key = 16%nat ->
  encrypt_with 23 key usage conf msg = Ok ct -> decrypt 23 key usage ct = Ok msg.
Proof.
  intros Hc Hk. rewrite encrypt_with_rc4, rc4_encrypt_ok. cbv zeta. intros E. apply ok_inj in E. subst ct.
  set (k2 := HMAC.hmac_md5 key (rc4_msg_type usage)). set (chk := HMAC.hmac_md5 k2 (conf ++ msg)).
  assert (length chk = 16%nat) as Lchk by apply HMAC.hmac_md5_length.
  unfold decrypt. change (et_family 23) with (Some FRc4). cbv iota.
  change (key_len 23) with 16%nat. rewrite Hk. cbn [Nat.eqb negb]. unfold rc4_decrypt. fold k2.
  rewrite app_length, RC4.rc4_length, Lchk, app_length, Hc.
  destruct (Nat.ltb_spec (16 + (8 + length msg)) 24); [lia|].
  rewrite <- Lchk. rewrite firstn_app_exact, skipn_app_exact.
  rewrite rc4_involutive. fold chk. rewrite beq_bytes_refl. rewrite <- Hc, skipn_app_exact. reflexivity.
Qed.

(* every etype at once: only des3 (CBC without ciphertext stealing) leaves padding; an unknown etype seals nothing *)
Theorem encrypt_with_decrypt et key usage conf msg ct :
  length conf = conf_len et -> wf_bytes conf -> wf_bytes msg ->
  match et_family et with
  | Some FAesSha1 | Some FAesSha2 => wf_bytes key
  | Some FRc4 => length key = 16%nat
  | Some FDes3 | None => True
  end ->
  encrypt_with et key usage conf msg = Ok ct ->
  decrypt et key usage ct =
  Ok (msg ++ zeros (match et_family et with Some FDes3 => (8 - (8 + length msg) mod 8) mod 8 | _ => 0 end)%nat).
Proof.
  intros Hc Wc Wm Hk E. destruct (et_family et) as [[| | |]|] eqn:F.
  - rewrite aes_conf_len in Hc by (left; exact F). cbn [zeros repeatz]. rewrite app_nil_r.
    exact (aes_sha1_roundtrip et key usage conf msg ct F Hc Hk Wc Wm E).
  - rewrite aes_conf_len in Hc by (right; exact F). cbn [zeros repeatz]. rewrite app_nil_r.
    exact (aes_sha2_roundtrip et key usage conf msg ct F Hc Hk Wc Wm E).
  - apply et_family_cases in F. subst et.
    rewrite (des3_roundtrip key usage conf msg ct Hc Wc Wm E), app_length, Hc. reflexivity.
  - apply et_family_cases in F. subst et. cbn [zeros repeatz]. rewrite app_nil_r.
    exact (rc4_roundtrip key usage conf msg ct Hc Hk E).
  - unfold encrypt_with in E. rewrite F in E. discriminate.
Qed.

(* Acceptance set: decryption succeeds only when the trailing MAC equals the integrity hash the RFC defines. *)
Theorem decrypt_accepts_only_valid_mac et key usage ct m :
  decrypt et key usage ct = Ok m ->
  let n := (length ct - mac_len et)%nat in
  match et_family et with
  | Some FAesSha1 => exists ke pt, derive_key et key (usage_const usage 170) = Ok ke /\
      cts_decrypt (aes_ecb_dec ke) (firstn n ct) = Ok pt /\
      integrity_hash et key usage pt = Ok (skipn n ct) /\ m = skipn 16 pt
  | Some FAesSha2 => length key = key_len et /\ exists ke pt, derive_key et key (usage_const usage 170) = Ok ke /\
      cts_decrypt (aes_ecb_dec ke) (firstn n ct) = Ok pt /\
      integrity_hash et key usage (zeros 16 ++ firstn n ct) = Ok (skipn n ct) /\ m = skipn 16 pt
  | Some FDes3 => exists ke, derive_key et key (usage_const usage 170) = Ok ke /\
      let pt := cbc_decrypt (des3_ecb_dec ke) 8 (zeros 8) (firstn n ct) in
      integrity_hash et key usage pt = Ok (skipn n ct) /\ m = skipn 8 pt
  | Some FRc4 =>
      let k2 := HMAC.hmac_md5 key (rc4_msg_type usage) in
      let pt := RC4.rc4 (HMAC.hmac_md5 k2 (firstn 16 ct)) (skipn 16 ct) in
      length key = key_len et /\ HMAC.hmac_md5 k2 pt = firstn 16 ct /\ m = skipn 8 pt
  | None => False
  end.
Proof.
  unfold decrypt. destruct (et_family et) as [[| | |]|]; cbv zeta.
  - destruct (_ <? _)%nat; [discriminate|].
    exact (aes_open_ok et key usage ct (fun pt => pt) m).
  - destruct (Nat.eqb_spec (length key) (key_len et)) as [Hk|]; cbn [negb]; [|discriminate].
    destruct (_ <? _)%nat; [discriminate|]. intros E. split; [exact Hk|].
    exact (aes_open_ok et key usage ct (fun _ => zeros 16 ++ firstn (length ct - mac_len et) ct) m E).
  - destruct (_ <? _)%nat; [discriminate|].
    destruct (derive_key et key _) as [ke| |]; cbn [bind]; try discriminate.
    destruct (negb _); [discriminate|].
    destruct (integrity_hash et key usage _) as [ih| |] eqn:Ei; cbn [bind]; try discriminate.
    destruct (beq_bytes ih _) eqn:B; [|discriminate]. apply beq_bytes_eq in B. subst ih.
    intros H. injection H as <-. exists ke. repeat split; assumption.
  - destruct (Nat.eqb_spec (length key) (key_len et)) as [Hk|]; cbn [negb]; [|discriminate].
    unfold rc4_decrypt. destruct (_ <? _)%nat; [discriminate|].
    destruct (beq_bytes _ _) eqn:B; [|discriminate]. apply beq_bytes_eq in B.
    intros H. injection H as <-. split; [exact Hk|]. split; [exact B|reflexivity].
  - discriminate.
Qed.
