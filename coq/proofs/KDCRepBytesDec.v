(* Gokrb5.proofs.KDCRepBytesDec — the Go-shaped lenient decoder of model/KDCRepBytes.v reads back every DER
   encoding (model/DERCodec.v: enc) of a well-formed value of the corresponding RFC schema:

     go_unmarshal_app_encode :  0 <= n < 31 -> gok g -> is_raw g = false -> wf_val (erase g) v -> gowf g v ->
                                |enc| < 2^31 -> go_unmarshal_app n g (enc (TApp n (erase g)) v ++ trailing) = Some v

   for every Go type description g (erase g is its wire schema; gowf adds what Go's types add to the schema:
   integers fit int32 / int64, BIT STRING padding bits are zero).  Together with erase g_X = rfc_X (by
   computation, at the end) this is what connects bytes mode to the RFC schemas of C13.
   Section 1 of model/KDCRepBytes.v and model/GoASN1.v (proofs/GoASN1Proofs.v) are two independently written models of
   the same gofork decoder; this one serves the KDC-REP side, and no lemma relates the two. *)
From Coq Require Import ZifyBool.
From Gokrb5.lib Require Import Bytes JV.
From Gokrb5.model Require Import Schema DER DERCodec RFCSchemas KDCRep KDCRepBytes.
From Gokrb5.proofs Require Import DERBasic DERTime DERProofs.

Fixpoint erase (g : gty) : ty :=
  match g with
  | GInt _ => TInt
  | GOctets => TOctets
  | GStr => TGenStr
  | GTime => TGenTime
  | GBits => TBits
  | GStruct fs _ => TSeq (map (fun f : gfield => (Some (fst (fst f)), snd (fst f), erase (snd f))) fs)
  | GSliceOf e => TSeqOf (erase e)
  | GRawApp n g' => TApp n (erase g')
  end.

Definition efield (f : gfield) : field := (Some (fst (fst f)), snd (fst f), erase (snd f)).

(* what the Go types require beyond the schema *)
Definition gowf_fields (w : gty -> value -> bool) : list gfield -> list (option value) -> bool :=
  fix go (fs : list gfield) (vs : list (option value)) : bool :=
  match fs, vs with
  | [], [] => true
  | (_, _, g) :: fs', o :: vs' => (match o with Some v => w g v | None => true end) && go fs' vs'
  | _, _ => false
  end.

Fixpoint gowf (g : gty) (v : value) {struct g} : bool :=
  match g, v with
  | GInt w, VInt z => (- 2 ^ (w - 1) <=? z) && (z <? 2 ^ (w - 1))
  | GBits, VBits u b => pad_zero u b
  | GStruct fs _, VSeq vs => gowf_fields gowf fs vs
  | GSliceOf e, VList vs => forallb (gowf e) vs
  | GRawApp _ g', _ => gowf g' v
  | _, _ => true
  end.

(* Go declarations on which decoding is unambiguous: context tags below 31 and increasing, no OPTIONAL RawValue *)
Definition gok_fields (ok : gty -> bool) : Z -> list gfield -> bool :=
  fix go (prev : Z) (fs : list gfield) : bool :=
  match fs with
  | [] => true
  | (t, o, g) :: fs' => (prev <? t) && (t <? 31) && ok g && negb (o && is_raw g) && go t fs'
  end.

Fixpoint gok (g : gty) : bool :=
  match g with
  | GStruct fs _ => gok_fields gok (-1) fs
  | GSliceOf e => gok e && negb (is_raw e)
  | GRawApp n g' => (0 <=? n) && (n <? 31) && gok g' && negb (is_raw g')
  | _ => true
  end.

Section GtyInd.
  Variable P : gty -> Prop.
  Hypothesis HInt : forall w, P (GInt w).
  Hypothesis HOctets : P GOctets.
  Hypothesis HStr : P GStr.
  Hypothesis HTime : P GTime.
  Hypothesis HBits : P GBits.
  Hypothesis HStruct : forall fs extra, Forall (fun f : gfield => P (snd f)) fs -> P (GStruct fs extra).
  Hypothesis HSlice : forall e, P e -> P (GSliceOf e).
  Hypothesis HRaw : forall n g, P g -> P (GRawApp n g).

  Fixpoint gty_ind' (g : gty) : P g :=
    match g with
    | GInt w => HInt w | GOctets => HOctets | GStr => HStr | GTime => HTime | GBits => HBits
    | GStruct fs extra =>
      HStruct fs extra ((fix go (l : list gfield) : Forall (fun f : gfield => P (snd f)) l :=
                          match l with
                          | [] => Forall_nil _
                          | f :: r => Forall_cons f (match f as f0 return P (snd f0) with (_, g') => gty_ind' g' end)
                                                  (go r)
                          end) fs)
    | GSliceOf e => HSlice e (gty_ind' e)
    | GRawApp n g' => HRaw n g' (gty_ind' g')
    end.
End GtyInd.

Lemma go_hdr_tlv id body rest :
  0 <= id < 256 -> id mod 32 <> 31 -> zlen body < 2147483648 ->
  go_hdr (tlv id body ++ rest) = Some (id / 64, (id / 32) mod 2 =? 1, id mod 32, zlen body, body ++ rest).
Proof.
  intros Hid Hm Hb. unfold tlv, go_hdr. cbn [app].
  replace (is_byte id) with true by (unfold is_byte; lia).
  destruct (Z.eqb_spec (id mod 32) 31); [contradiction|].
  rewrite <- app_assoc. rewrite parse_len_der_len by (pose proof (zlen_nonneg body); lia).
  replace (zlen body <? 2147483648) with true by lia. reflexivity.
Qed.

Lemma gelem_gen_plain um bodyf opt id body rest v :
  0 <= id < 256 -> id mod 32 <> 31 -> zlen body < 2147483648 ->
  um (id / 64) ((id / 32) mod 2 =? 1) (id mod 32) = true -> bodyf (id mod 32) body = Some v ->
  gelem_gen false um bodyf None opt (tlv id body ++ rest) = Some (Some v, rest).
Proof.
  intros Hid Hm Hb Hu Hf. unfold gelem_gen.
  rewrite match_cons by apply tlv_app_nonempty.
  rewrite go_hdr_tlv by assumption.
  rewrite Hu. rewrite splitz_app. rewrite Hf. reflexivity.
Qed.

(* a field inside its explicit wrapper [c n]; the wrapper's own length plays no role *)
Lemma gelem_gen_wrapped um bodyf c n opt id body rest v :
  0 <= c <= 3 -> 0 <= n < 31 ->
  0 <= id < 256 -> id mod 32 <> 31 -> zlen body < 2147483648 -> zlen (tlv id body) < 2147483648 ->
  um (id / 64) ((id / 32) mod 2 =? 1) (id mod 32) = true -> bodyf (id mod 32) body = Some v ->
  gelem_gen false um bodyf (Some (c, n)) opt (tlv (ident c true n) (tlv id body) ++ rest) = Some (Some v, rest).
Proof.
  intros Hc Hn Hid Hm Hb Hb2 Hu Hf. unfold gelem_gen.
  destruct (ident_spec c true n Hc Hn) as (I1 & I5 & I3 & I4). assert (I2 : ident c true n mod 32 <> 31) by lia.
  rewrite match_cons by apply tlv_app_nonempty.
  rewrite go_hdr_tlv by assumption. rewrite I3, I4, I5.
  rewrite match_cons by apply tlv_app_nonempty.
  rewrite !Z.eqb_refl. cbn [orb andb].
  pose proof (zlen_tlv id body). pose proof (zlen_nonneg body).
  replace (0 <? zlen (tlv id body)) with true by lia.
  rewrite go_hdr_tlv by assumption. rewrite Hu. rewrite splitz_app. rewrite Hf. reflexivity.
Qed.

Lemma gelem_gen_other um bodyf c n opt c' n' x rest :
  0 <= c' <= 3 -> 0 <= n' < 31 -> c' <> c \/ n' <> n -> x <> [] -> zlen x < 2147483648 ->
  gelem_gen false um bodyf (Some (c, n)) opt (tlv (ident c' true n') x ++ rest) =
  if opt then Some (None, tlv (ident c' true n') x ++ rest) else None.
Proof.
  intros Hc Hn Hne Hx Hs. unfold gelem_gen.
  destruct (ident_spec c' true n' Hc Hn) as (I1 & I5 & I3 & I4). assert (I2 : ident c' true n' mod 32 <> 31) by lia.
  rewrite match_cons by apply tlv_app_nonempty.
  rewrite go_hdr_tlv by assumption. rewrite I3, I4, I5.
  rewrite match_cons by (apply app_nonempty_l, Hx).
  replace ((c' =? c) && (n' =? n)) with false by lia. reflexivity.
Qed.

Definition shape (g : gty) (v : value) : Prop :=
  exists id body,
    enc (erase g) v = tlv id body /\ 0 <= id < 256 /\ id mod 32 <> 31 /\
    univ_match g (id / 64) ((id / 32) mod 2 =? 1) (id mod 32) = true /\
    gbody g (id mod 32) body = Some v.

Definition small (b : bytes) : Prop := zlen b < 2147483648.

(* Q g, the statement proved by induction on g: every small well-formed value of g has the shape above (non-raw g),
   or its contents parser reads it back from the APPLICATION-wrapped encoding (raw g) *)
Definition Q (g : gty) : Prop :=
  forall v, wf_val (erase g) v = true -> gowf g v = true -> small (enc (erase g) v) ->
  if is_raw g then forall tag, gbody g tag (enc (erase g) v) = Some v
  else shape g v.

Lemma shape_univ g v tag c body : 0 <= tag < 31 ->
  enc (erase g) v = tlv (ident 0 c tag) body -> univ_match g 0 c tag = true -> gbody g tag body = Some v ->
  shape g v.
Proof.
  intros Ht E Hu Hf. destruct (ident_spec 0 c tag ltac:(lia) Ht) as (H1 & H2 & H3 & H4).
  exists (ident 0 c tag), body. rewrite H2, H3, H4. repeat split; auto; try lia.
  destruct c; exact Hu.
Qed.

Lemma gelem_gen_shape g c n opt v rest : 0 <= c <= 3 -> 0 <= n < 31 -> shape g v ->
  small (enc (erase g) v) ->
  gelem_gen false (univ_match g) (gbody g) (Some (c, n)) opt (tlv (ident c true n) (enc (erase g) v) ++ rest)
  = Some (Some v, rest).
Proof.
  intros Hc Hn (id & body & E & Hid & Hm & Hu & Hf) Hs. rewrite E in *.
  exact (gelem_gen_wrapped _ _ c n opt id body rest v Hc Hn Hid Hm (zlen_lt_tlv _ _ _ Hs) Hs Hu Hf).
Qed.

(* the field wrapped in its context tag, for raw and non-raw types alike *)
Lemma gelem_field g t o v rest :
  0 <= t < 31 -> Q g -> wf_val (erase g) v = true -> gowf g v = true -> small (enc (erase g) v) ->
  gelem_gen (is_raw g) (univ_match g) (gbody g) (Some (2, t)) o (tlv (ident 2 true t) (enc (erase g) v) ++ rest)
  = Some (Some v, rest).
Proof.
  intros Ht HQ Hwf Hgo Hs. specialize (HQ v Hwf Hgo Hs). destruct (is_raw g) eqn:R.
  - (* asn1.RawValue: any TLV; its contents go to the contents parser *)
    unfold gelem_gen. destruct (ident_spec 2 true t ltac:(lia) Ht) as (I1 & I5 & _). assert (I2 : ident 2 true t mod 32 <> 31) by lia.
    rewrite match_cons by apply tlv_app_nonempty.
    rewrite go_hdr_tlv by assumption.
    rewrite splitz_app. rewrite HQ. reflexivity.
  - apply gelem_gen_shape; auto. lia.
Qed.

Lemma efields_cons t o g fs : map efield ((t, o, g) :: fs) = (Some t, o, erase g) :: map efield fs.
Proof. reflexivity. Qed.

Lemma gowf_fields_cons (w : gty -> value -> bool) t o g fs ov vs :
  gowf_fields w ((t, o, g) :: fs) (ov :: vs) =
  (match ov with Some v => w g v | None => true end) && gowf_fields w fs vs.
Proof. reflexivity. Qed.

Lemma gok_fields_cons (ok : gty -> bool) prev t o g fs :
  gok_fields ok prev ((t, o, g) :: fs) =
  (prev <? t) && (t <? 31) && ok g && negb (o && is_raw g) && gok_fields ok t fs.
Proof. reflexivity. Qed.

Lemma gok_fields_inv (ok : gty -> bool) prev t o g fs : gok_fields ok prev ((t, o, g) :: fs) = true ->
  prev < t < 31 /\ ok g = true /\ o && is_raw g = false /\ gok_fields ok t fs = true.
Proof.
  rewrite gok_fields_cons. intros H. split_andb. rewrite negb_true_iff in *. repeat split; auto; lia.
Qed.

Lemma gfields_cons fld t o g fs b :
  gfields fld ((t, o, g) :: fs) b =
  match fld g t o b with
  | Some (ov, r) => match gfields fld fs r with Some (vs, r') => Some (ov :: vs, r') | None => None end
  | None => None
  end.
Proof. reflexivity. Qed.

Lemma gok_fields_weaken (ok : gty -> bool) fs : forall p p', p' <= p -> gok_fields ok p fs = true -> gok_fields ok p' fs = true.
Proof.
  destruct fs as [|[[t o] g] fs]; intros p p' Hp H; [reflexivity|].
  apply gok_fields_inv in H. destruct H as (Ht & Hokg & Hnr & Hrest).
  rewrite gok_fields_cons, Hokg, Hnr, Hrest. replace (p' <? t) with true by lia. replace (t <? 31) with true by lia. reflexivity.
Qed.

(* the encoding of the remaining fields is empty or starts with a context-tagged TLV whose number is larger than
   prev, whose contents are not empty, and which is small *)
Lemma enc_fields_next fs : forall prev vs,
  gok_fields gok prev fs = true -> wf_fields wf_val (map efield fs) vs = true ->
  small (enc_fields enc (map efield fs) vs) ->
  enc_fields enc (map efield fs) vs = [] \/
  exists t x more, enc_fields enc (map efield fs) vs = tlv (ident 2 true t) x ++ more /\
                   prev < t < 31 /\ x <> [] /\ small x.
Proof.
  induction fs as [|[[t o] g] fs IH]; intros prev vs Hok Hwf Hs.
  - left. destruct vs; reflexivity.
  - destruct vs as [|ov vs]; [discriminate|]. rewrite efields_cons in *.
    rewrite wf_fields_cons in Hwf. apply andb_true_iff in Hwf. destruct Hwf as [Hw1 Hw2].
    apply gok_fields_inv in Hok. destruct Hok as (Ht & Hokg & Hnr & Hrest).
    rewrite enc_fields_cons in *. destruct ov as [v|].
    + right. cbn [wrap_tag] in *. exists t, (enc (erase g) v), (enc_fields enc (map efield fs) vs).
      split; [reflexivity|]. split; [lia|]. split; [apply wf_enc_nonempty, Hw1|].
      apply zlen_lt_app_l in Hs. apply zlen_lt_tlv in Hs. exact Hs.
    + cbn [app] in *. destruct (IH t vs Hrest Hw2 Hs) as [E|(t' & x & more & E & Ht2 & Hx & Hsx)]; [left; exact E|].
      right. exists t', x, more. split; [exact E|]. split; [lia|]. auto.
Qed.

Definition fld_of : gty -> Z -> bool -> bytes -> option (option value * bytes) :=
  fun g' t o b => gelem_gen (is_raw g') (univ_match g') (gbody g') (Some (2, t)) o b.

Lemma gfields_enc_fields fs :
  Forall (fun f : gfield => gok (snd f) = true -> Q (snd f)) fs ->
  forall prev vs, -1 <= prev -> gok_fields gok prev fs = true ->
  wf_fields wf_val (map efield fs) vs = true -> gowf_fields gowf fs vs = true ->
  small (enc_fields enc (map efield fs) vs) ->
  gfields fld_of fs (enc_fields enc (map efield fs) vs) = Some (vs, []).
Proof.
  induction 1 as [|[[t o] g] fs HQ _ IH]; intros prev vs Hprev Hok Hwf Hgo Hs.
  - destruct vs; [reflexivity | discriminate].
  - destruct vs as [|ov vs]; [discriminate|]. rewrite efields_cons in *.
    rewrite wf_fields_cons in Hwf. apply andb_true_iff in Hwf. destruct Hwf as [Hw1 Hw2].
    rewrite gowf_fields_cons in Hgo. apply andb_true_iff in Hgo. destruct Hgo as [Hg1 Hg2].
    apply gok_fields_inv in Hok. destruct Hok as (Ht & Hokg & Hnr & Hrest).
    cbn [snd] in HQ. specialize (HQ Hokg).
    rewrite enc_fields_cons in *. rewrite gfields_cons. destruct ov as [v|].
    + cbn [wrap_tag] in *. unfold fld_of at 1.
      assert (Hsv : small (enc (erase g) v)) by (apply zlen_lt_app_l in Hs; apply zlen_lt_tlv in Hs; exact Hs).
      rewrite (gelem_field g t o v _ ltac:(lia) HQ Hw1 Hg1 Hsv).
      rewrite (IH t vs ltac:(lia) Hrest Hw2 Hg2) by (eapply zlen_lt_app_r, Hs). reflexivity.
    + subst o. cbn [app andb] in *. unfold fld_of at 1. rewrite Hnr.
      assert (Hskip : gelem_gen false (univ_match g) (gbody g) (Some (2, t)) true (enc_fields enc (map efield fs) vs)
                      = Some (None, enc_fields enc (map efield fs) vs)).
      { destruct (enc_fields_next fs t vs Hrest Hw2 Hs) as [E|(t' & x & more & E & Ht' & Hx & Hsx)]; rewrite E.
        - reflexivity.
        - apply gelem_gen_other; auto; lia. }
      rewrite Hskip. rewrite (IH t vs ltac:(lia) Hrest Hw2 Hg2 Hs). reflexivity.
Qed.

Lemma glist_cons dec1 n b : b <> [] ->
  glist dec1 (S n) b =
  match dec1 b with
  | Some (Some v, r) => match glist dec1 n r with Some vs => Some (v :: vs) | None => None end
  | _ => None
  end.
Proof. destruct b; [congruence | reflexivity]. Qed.

Lemma glist_flat_map e : Q e -> is_raw e = false -> forall vs (n : nat),
  Forall (fun v => wf_val (erase e) v = true) vs -> Forall (fun v => gowf e v = true) vs ->
  small (flat_map (enc (erase e)) vs) -> zlen (flat_map (enc (erase e)) vs) <= Z.of_nat n ->
  glist (gelem_gen false (univ_match e) (gbody e) None false) n (flat_map (enc (erase e)) vs) = Some vs.
Proof.
  intros HQ HR vs. induction vs as [|v vs IH]; intros n Hwf Hgo Hs Hn.
  - destruct n; reflexivity.
  - inversion Hwf as [|? ? Hv Hvs]; subst. inversion Hgo as [|? ? Hg Hgs]; subst. cbn [flat_map] in *.
    pose proof (HQ v Hv Hg (zlen_lt_app_l _ _ _ Hs)) as Hsh. rewrite HR in Hsh.
    destruct Hsh as (id & body & E & Hid & Hm & Hu & Hf).
    pose proof (zlen_tlv id body). pose proof (zlen_nonneg body).
    rewrite zlen_app, E in Hn. pose proof (zlen_nonneg (flat_map (enc (erase e)) vs)). destruct n as [|n]; [lia|].
    assert (Hsb : zlen body < 2147483648).
    { apply zlen_lt_app_l in Hs. rewrite E in Hs. apply zlen_lt_tlv in Hs. exact Hs. }
    rewrite E, glist_cons by apply tlv_app_nonempty.
    rewrite (gelem_gen_plain _ _ false id body _ v Hid Hm Hsb Hu Hf).
    rewrite IH; [reflexivity | exact Hvs | exact Hgs | eapply zlen_lt_app_r, Hs | lia].
Qed.

Lemma gextras_nil chk gs :
  (forall g, chk g [] = Some (None, [])) -> gextras chk gs [] = true.
Proof. intros H. induction gs as [|g gs IH]; [reflexivity|]. cbn [gextras]. rewrite H. exact IH. Qed.

Theorem gdec_enc : forall g, gok g = true -> Q g.
Proof.
  induction g using gty_ind'; intros Hok v Hwf Hgo Hs; cbn [is_raw].
  1-7: destruct v; cbn [erase wf_val] in Hwf; try discriminate; cbn [gowf gok erase enc] in *.
  - (* GInt *) apply (shape_univ _ _ 2 false (enc_int z)); [lia | reflexivity | reflexivity |].
    cbn [gbody]. unfold go_int. rewrite dec_int_enc_int, Hgo. reflexivity.
  - (* GOctets *) apply (shape_univ _ _ 4 false b); [lia | reflexivity | reflexivity | reflexivity].
  - (* GStr *) apply (shape_univ _ _ 27 false b); [lia | reflexivity | reflexivity | reflexivity].
  - (* GTime *) apply (shape_univ _ _ 24 false (enc_time secs)); [lia | reflexivity | reflexivity |].
    cbn [gbody Z.eqb Pos.eqb]. unfold go_gentime. rewrite dec_time_enc_time by exact Hwf. reflexivity.
  - (* GBits *) apply andb_true_iff in Hwf. destruct Hwf as [Hb _].
    apply (shape_univ _ _ 3 false (enc_bits unused b)); [lia | reflexivity | reflexivity |].
    cbn [gbody]. unfold go_bits, enc_bits, dec_bits. rewrite Hb, Hgo. reflexivity.
  - (* GStruct *) apply (shape_univ _ _ 16 true (enc_fields enc (map efield fs) fs0)); [lia | reflexivity | reflexivity |].
    cbn [gbody].
    change (gfields (fun g' t o b => gelem_gen (is_raw g') (univ_match g') (gbody g') (Some (2, t)) o b))
      with (gfields fld_of).
    apply zlen_lt_tlv in Hs. rewrite (gfields_enc_fields fs H (-1) fs0); auto; try lia.
    rewrite gextras_nil; [reflexivity|]. intros g'. reflexivity.
  - (* GSliceOf *) apply andb_true_iff in Hok. destruct Hok as [Hok HR]. apply negb_true_iff in HR.
    apply (shape_univ _ _ 16 true (flat_map (enc (erase g)) vs)); [lia | reflexivity | reflexivity |].
    cbn [gbody]. apply zlen_lt_tlv in Hs.
    rewrite (glist_flat_map g (IHg Hok) HR vs (length (flat_map (enc (erase g)) vs))); auto.
    + apply Forall_forallb, Hwf.
    + apply Forall_forallb, Hgo.
    + unfold zlen. lia.
  - (* GRawApp *) cbn [gok] in Hok. split_andb. rewrite negb_true_iff in *.
    cbn [erase wf_val gowf] in Hwf, Hgo. cbn [erase enc] in Hs |- *. apply zlen_lt_tlv in Hs.
    intros tag. cbn [gbody].
    pose proof (IHg ltac:(assumption) v Hwf Hgo Hs) as Hsh. replace (is_raw g) with false in Hsh by (symmetry; assumption).
    rewrite <- (app_nil_r (tlv (ident 1 true n) (enc (erase g) v))).
    rewrite gelem_gen_shape by (auto; lia). reflexivity.
Qed.

(* asn1.UnmarshalWithParams(b, &x, "application,explicit,tag:n") reads back the APPLICATION-wrapped encoding of
   x's wire schema, whatever follows it *)
Theorem go_unmarshal_app_encode n g v trailing :
  0 <= n < 31 -> gok g = true -> is_raw g = false ->
  wf_val (erase g) v = true -> gowf g v = true -> zlen (enc (TApp n (erase g)) v) < 2 ^ 31 ->
  go_unmarshal_app n g (enc (TApp n (erase g)) v ++ trailing) = Some v.
Proof.
  intros Hn Hok HR Hwf Hgo Hs. change (2 ^ 31) with 2147483648 in Hs. unfold go_unmarshal_app, gelem. rewrite HR.
  cbn [enc] in *. apply zlen_lt_tlv in Hs.
  pose proof (gdec_enc g Hok v Hwf Hgo Hs) as Hsh. rewrite HR in Hsh.
  rewrite gelem_gen_shape by (auto; lia). reflexivity.
Qed.

(* a reply under another APPLICATION tag is not read *)
Theorem go_unmarshal_app_other_tag n m g x trailing :
  0 <= n < 31 -> 0 <= m < 31 -> n <> m -> x <> [] -> zlen x < 2 ^ 31 -> is_raw g = false ->
  go_unmarshal_app n g (tlv (ident 1 true m) x ++ trailing) = None.
Proof.
  intros Hn Hm Hne Hx Hs HR. change (2 ^ 31) with 2147483648 in Hs. unfold go_unmarshal_app, gelem. rewrite HR.
  rewrite gelem_gen_other by (auto; lia). reflexivity.
Qed.

(* the Go declarations of model/KDCRepBytes.v are the RFC 4120 schemas of model/RFCSchemas.v *)
Example erase_KDCRep : erase g_KDCRep = rfc_KDCRep.
Proof. reflexivity. Qed.
Example erase_EncKDCRepPart : erase g_EncKDCRepPart = rfc_EncKDCRepPart.
Proof. reflexivity. Qed.
Example erase_Ticket : TApp 1 (erase g_Ticket) = rfc_Ticket.
Proof. reflexivity. Qed.
Example erase_EncTicketPart : TApp 3 (erase g_EncTicketPart) = rfc_EncTicketPart.
Proof. reflexivity. Qed.
Example erase_ETypeInfo2 : erase g_ETypeInfo2 = TSeqOf rfc_ETypeInfo2Entry.
Proof. reflexivity. Qed.
Example erase_ETypeInfo : erase g_ETypeInfo = TSeqOf rfc_ETypeInfoEntry.
Proof. reflexivity. Qed.
Example gok_KDCRep : gok g_KDCRep = true.
Proof. reflexivity. Qed.
Example gok_EncKDCRepPart : gok g_EncKDCRepPart = true.
Proof. reflexivity. Qed.
