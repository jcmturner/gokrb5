(* Gokrb5.proofs.DERBasic — identifier octet, length octets, TLV and INTEGER body of model/DER.v: the parser inverts
   the writer and accepts only what the writer writes.  The DER proofs above it share its facts about identifiers and
   about the length of a part against the whole. *)
From Coq Require Import ZifyBool.
From Gokrb5.lib Require Import Bytes.
From Gokrb5.model Require Import DER.
(* lets lia reason about / and mod by constants (each occurrence becomes its quotient-remainder equation); it stays
   in force in every file that requires this one *)
Ltac Zify.zify_post_hook ::= Z.div_mod_to_equations.

(* splits every hypothesis of the form a && b = true *)
Ltac split_andb :=
  repeat match goal with H : _ && _ = true |- _ => apply andb_true_iff in H; destruct H end.

Lemma zfuel_spec n : Z.abs n < 2 ^ Z.of_nat (zfuel n).
Proof.
  unfold zfuel. rewrite Nat2Z.inj_succ, Z2Nat.id by apply Z.log2_nonneg.
  destruct (Z.eq_dec (Z.abs n) 0) as [E|E].
  - rewrite E. cbn. lia.
  - apply Z.log2_spec. lia.
Qed.

Lemma pow_base_le (B : Z) (f : nat) : 2 <= B -> 2 ^ Z.of_nat f <= B ^ Z.of_nat f.
Proof. intros H. apply Z.pow_le_mono_l. lia. Qed.

Lemma pow_succ_nat (B : Z) (f : nat) : B ^ Z.of_nat (S f) = B * B ^ Z.of_nat f.
Proof. rewrite Nat2Z.inj_succ, Z.pow_succ_r by lia. reflexivity. Qed.

Lemma pow_pos_nat (B : Z) (f : nat) : 0 < B -> 0 < B ^ Z.of_nat f.
Proof. intros. apply Z.pow_pos_nonneg; lia. Qed.

Lemma zfuel_256 n : 0 <= n -> n < 256 ^ Z.of_nat (zfuel n).
Proof. intros H. pose proof (zfuel_spec n). pose proof (pow_base_le 256 (zfuel n)). lia. Qed.

Lemma be_val_acc_ge c l : wf_bytes l -> 0 <= c -> c <= be_val_acc c l.
Proof.
  intros H; revert c; induction H as [|x l Hx Hl IH]; intros c Hc; cbn [be_val_acc]; [lia|].
  specialize (IH (c * 256 + x)). lia.
Qed.

Lemma ident_spec cls c n : 0 <= cls <= 3 -> 0 <= n < 31 ->
  0 <= ident cls c n < 256 /\ ident cls c n mod 32 = n /\ ident cls c n / 64 = cls /\
  (ident cls c n / 32) mod 2 = (if c then 1 else 0).
Proof. unfold ident. intros Hc Hn. destruct c; lia. Qed.

Lemma ident_low cls c n : 0 <= cls <= 3 -> 0 <= n < 31 -> ident cls c n mod 32 <> 31.
Proof. intros Hc Hn. destruct (ident_spec cls c n Hc Hn) as (_ & E & _). lia. Qed.

Definition nz_head (o : bytes) : Prop := match o with [] => True | x :: _ => x <> 0 end.

Lemma be_min_0 f acc : be_min f 0 acc = acc.
Proof. destruct f; reflexivity. Qed.

Lemma be_min_spec f : forall n acc, 0 <= n < 256 ^ Z.of_nat f ->
  exists o, be_min f n acc = o ++ acc /\ wf_bytes o /\ nz_head o /\ be_val o = n /\
            forall k : nat, n < 256 ^ Z.of_nat k -> (length o <= k)%nat.
Proof.
  unfold be_val. induction f as [|f IH]; intros n acc H.
  - change (256 ^ Z.of_nat 0) with 1 in H. assert (n = 0) by lia; subst.
    exists []. repeat split; [constructor | intros; cbn; lia].
  - rewrite pow_succ_nat in H. cbn [be_min]. destruct (Z.leb_spec n 0).
    + assert (n = 0) by lia; subst. exists []. repeat split; [constructor | intros; cbn; lia].
    + destruct (IH (n / 256) (n mod 256 :: acc) ltac:(lia)) as (o & E & Hw & Hz & Hv & Hl).
      exists (o ++ [n mod 256]). rewrite E, <- app_assoc. split; [reflexivity|].
      split; [apply wf_bytes_app; split; [exact Hw | apply wf_bytes_cons; split; [lia | constructor]]|].
      split; [destruct o; cbn in *; [lia | exact Hz]|].
      split; [rewrite be_val_acc_app, Hv; cbn [be_val_acc]; lia|].
      intros [|k] Hk; [change (256 ^ Z.of_nat 0) with 1 in Hk; lia|].
      rewrite pow_succ_nat in Hk. rewrite app_length. specialize (Hl k ltac:(lia)). cbn [length]. lia.
Qed.

Lemma be_take_app o : forall r c, wf_bytes o ->
  be_take (length o) (o ++ r) c = Some (be_val_acc c o, r).
Proof.
  induction o as [|x o IH]; intros r c H; [reflexivity|].
  apply wf_bytes_cons in H. destruct H as [Hx Ho]. cbn [length app be_take be_val_acc].
  replace (is_byte x) with true by (symmetry; apply is_byte_iff; lia). apply IH, Ho.
Qed.

Lemma be_take_inv k : forall b c n r, be_take k b c = Some (n, r) ->
  exists o, b = o ++ r /\ length o = k /\ wf_bytes o /\ n = be_val_acc c o.
Proof.
  induction k as [|k IH]; intros b c n r H; cbn [be_take] in H.
  - inversion H; subst. exists []. repeat split. constructor.
  - destruct b as [|x b]; [discriminate|]. destruct (is_byte x) eqn:Hx; [|discriminate].
    apply IH in H. destruct H as (o & -> & Hl & Hw & ->). exists (x :: o).
    cbn [app length be_val_acc]. repeat split; try lia.
    apply wf_bytes_cons. split; [apply is_byte_iff, Hx | exact Hw].
Qed.

Lemma der_len_long n : 128 <= n < 2 ^ 32 ->
  exists x o, der_len n = (128 + zlen (x :: o)) :: x :: o /\ x <> 0 /\ wf_bytes (x :: o) /\
              be_val (x :: o) = n /\ zlen (x :: o) <= 4.
Proof.
  intros H. unfold der_len. replace (n <? 128) with false by lia.
  destruct (be_min_spec (zfuel n) n [] ltac:(pose proof (zfuel_256 n); lia)) as (o & E & Hw & Hz & Hv & Hl).
  rewrite E, app_nil_r. specialize (Hl 4%nat ltac:(change (256 ^ Z.of_nat 4) with (2 ^ 32); lia)).
  destruct o as [|x o]; [cbn in Hv; lia|]. exists x, o. unfold zlen. repeat split; auto; lia.
Qed.

Theorem parse_len_der_len n r : 0 <= n < 2 ^ 32 -> parse_len (der_len n ++ r) = Some (n, r).
Proof.
  intros H. destruct (Z.ltb_spec n 128) as [Hs|Hs].
  - unfold der_len. replace (n <? 128) with true by lia. cbn [app parse_len].
    replace ((0 <=? n) && (n <? 128)) with true by lia. reflexivity.
  - destruct (der_len_long n ltac:(lia)) as (x & o & -> & Hx & Hw & Hv & Hz).
    pose proof (zlen_pos (x :: o) ltac:(discriminate)) as Hp. cbn [app parse_len].
    replace ((0 <=? 128 + zlen (x :: o)) && (128 + zlen (x :: o) <? 128)) with false by lia.
    replace ((128 <? 128 + zlen (x :: o)) && (128 + zlen (x :: o) <=? 132)) with true by lia.
    replace (128 + zlen (x :: o) - 128) with (zlen (x :: o)) by lia. rewrite Z2Nat_zlen.
    replace (x =? 0) with false by lia.
    change (x :: o ++ r) with ((x :: o) ++ r). rewrite be_take_app by exact Hw. fold (be_val (x :: o)). rewrite Hv.
    replace (n <? 128) with false by lia. reflexivity.
Qed.

Lemma be_val_pos x l : wf_bytes (x :: l) -> x <> 0 -> 1 <= be_val_acc 0 (x :: l).
Proof.
  intros H Hx. apply wf_bytes_cons in H. destruct H as [Hb Hl]. cbn [be_val_acc].
  pose proof (be_val_acc_ge (0 * 256 + x) l Hl ltac:(lia)). lia.
Qed.

Lemma be_min_canon o : wf_bytes o -> nz_head o -> forall f acc,
  be_val_acc 0 o < 256 ^ Z.of_nat f -> be_min f (be_val_acc 0 o) acc = o ++ acc.
Proof.
  induction o as [|y o IH] using rev_ind; intros Hw Hn f acc Hf.
  - cbn. apply be_min_0.
  - apply wf_bytes_app in Hw. destruct Hw as [Hwo Hy]. apply wf_bytes_cons in Hy. destruct Hy as [Hy _].
    rewrite be_val_acc_app in *. cbn [be_val_acc] in *.
    assert (Hno : nz_head o) by (destruct o; [exact I | exact Hn]).
    assert (Hpos : 0 < be_val_acc 0 o * 256 + y).
    { destruct o as [|x o]; [cbn in *; lia|]. pose proof (be_val_pos x o Hwo Hn). lia. }
    assert (0 <= be_val_acc 0 o) by (apply be_val_acc_ge; [exact Hwo | lia]).
    destruct f as [|f]; [change (256 ^ Z.of_nat 0) with 1 in Hf; lia|].
    rewrite pow_succ_nat in Hf. cbn [be_min]. destruct (Z.leb_spec (be_val_acc 0 o * 256 + y) 0); [lia|].
    replace ((be_val_acc 0 o * 256 + y) / 256) with (be_val_acc 0 o) by lia.
    replace ((be_val_acc 0 o * 256 + y) mod 256) with y by lia.
    rewrite IH by (auto; lia). rewrite <- app_assoc. reflexivity.
Qed.

Theorem parse_len_canon b n r : parse_len b = Some (n, r) -> b = der_len n ++ r /\ 0 <= n < 2 ^ 32.
Proof.
  unfold parse_len. destruct b as [|l b]; [discriminate|].
  destruct ((0 <=? l) && (l <? 128)) eqn:C1.
  - intros E; inversion E; subst. unfold der_len. replace (n <? 128) with true by lia. split; [reflexivity | lia].
  - destruct ((128 <? l) && (l <=? 132)) eqn:C2; [|discriminate].
    destruct b as [|x b']; [discriminate|]. destruct (Z.eqb_spec x 0); [discriminate|].
    destruct (be_take (Z.to_nat (l - 128)) (x :: b') 0) as [[n' r']|] eqn:E; [|discriminate].
    destruct (Z.ltb_spec n' 128); [discriminate|]. intros E'; inversion E'; subst n' r'.
    apply be_take_inv in E. destruct E as (o & Eb & Hl & Hw & Hn).
    assert (Hnz : nz_head o).
    { destruct o as [|x' o']; [exact I|]. cbn [app] in Eb. inversion Eb; subst. exact n0. }
    assert (Hb : 0 <= n < 256 ^ zlen o).
    { subst n. apply (be_val_bound o Hw). }
    assert (Hz : zlen o = l - 128) by (unfold zlen; lia).
    assert (Hlt : n < 2 ^ 32).
    { assert (256 ^ zlen o <= 256 ^ 4) by (apply Z.pow_le_mono_r; lia).
      change (256 ^ 4) with (2 ^ 32) in *. lia. }
    split; [|lia].
    unfold der_len. replace (n <? 128) with false by lia.
    pose proof (zfuel_256 n ltac:(lia)) as Hf.
    assert (Hm : be_min (zfuel n) n [] = o ++ []).
    { revert Hf. generalize (zfuel n). intros f Hf. subst n. apply be_min_canon; auto. }
    rewrite Hm, app_nil_r. rewrite Eb. cbn [app]. f_equal. lia.
Qed.

Lemma der_len_nonempty n : der_len n <> [].
Proof. unfold der_len. destruct (n <? 128); discriminate. Qed.

Lemma der_len_wf n : 0 <= n < 2 ^ 32 -> wf_bytes (der_len n).
Proof.
  intros H. destruct (Z.ltb_spec n 128).
  - unfold der_len. replace (n <? 128) with true by lia. apply wf_bytes_cons. split; [lia | constructor].
  - destruct (der_len_long n ltac:(lia)) as (x & o & -> & _ & Hw & _ & Hz).
    apply wf_bytes_cons. split; [pose proof (zlen_nonneg (x :: o)); lia | exact Hw].
Qed.

Lemma splitz_app a : forall r, splitz (a ++ r) (zlen a) = Some (a, r).
Proof.
  induction a as [|x a IH]; intros r.
  - destruct r; reflexivity.
  - rewrite zlen_cons. cbn [app splitz]. pose proof (zlen_nonneg a).
    destruct (Z.leb_spec (1 + zlen a) 0); [lia|].
    replace (1 + zlen a - 1) with (zlen a) by lia. rewrite IH. reflexivity.
Qed.

Lemma splitz_inv l : forall n a r, 0 <= n -> splitz l n = Some (a, r) -> l = a ++ r /\ zlen a = n.
Proof.
  induction l as [|x l IH]; intros n a r Hn H; cbn [splitz] in H.
  - destruct (Z.leb_spec n 0); [|discriminate]. inversion H; subst. split; [reflexivity | cbn; lia].
  - destruct (Z.leb_spec n 0).
    + inversion H; subst. split; [reflexivity | cbn; lia].
    + destruct (splitz l (n - 1)) as [[a' b']|] eqn:E; [|discriminate]. inversion H; subst.
      apply IH in E; [|lia]. destruct E as [-> Hz]. split; [reflexivity | rewrite zlen_cons; lia].
Qed.

Theorem parse_tlv_tlv id body r : id mod 32 <> 31 -> zlen body < 2 ^ 32 ->
  parse_tlv (tlv id body ++ r) = Some (id, body, r).
Proof.
  intros Hid Hb. unfold tlv. cbn [app parse_tlv]. destruct (Z.eqb_spec (id mod 32) 31); [contradiction|].
  rewrite <- app_assoc, parse_len_der_len by (pose proof (zlen_nonneg body); lia).
  rewrite splitz_app. reflexivity.
Qed.

Corollary parse_tlv_tlv_ident cls c tag body r :
  0 <= cls -> 0 <= tag < 31 -> zlen body < 2 ^ 32 ->
  parse_tlv (tlv (ident cls c tag) body ++ r) = Some (ident cls c tag, body, r).
Proof.
  intros Hc Ht Hb. apply parse_tlv_tlv; [|exact Hb]. unfold ident. destruct c; lia.
Qed.

Theorem parse_tlv_canon b id body r :
  parse_tlv b = Some (id, body, r) -> b = tlv id body ++ r /\ id mod 32 <> 31 /\ zlen body < 2 ^ 32.
Proof.
  unfold parse_tlv. destruct b as [|i b]; [discriminate|].
  destruct (Z.eqb_spec (i mod 32) 31); [discriminate|].
  destruct (parse_len b) as [[len r']|] eqn:E; [|discriminate].
  destruct (splitz r' len) as [[bd rs]|] eqn:E2; [|discriminate].
  intros H; inversion H; subst. apply parse_len_canon in E. destruct E as [-> Hn].
  apply splitz_inv in E2; [|lia]. destruct E2 as [-> Hz].
  unfold tlv. rewrite Hz. cbn [app]. rewrite <- app_assoc. repeat split; auto; lia.
Qed.

Lemma parse_tlv_app b id body r r' :
  parse_tlv b = Some (id, body, r) -> parse_tlv (b ++ r') = Some (id, body, r ++ r').
Proof.
  intros H. apply parse_tlv_canon in H. destruct H as (-> & Hi & Hb).
  rewrite <- app_assoc. apply parse_tlv_tlv; assumption.
Qed.

Lemma tlv_nonempty id body : tlv id body <> [].
Proof. discriminate. Qed.

Lemma tlv_app_nonempty id body rest : tlv id body ++ rest <> [].
Proof. discriminate. Qed.

Lemma zlen_tlv id body : zlen body < zlen (tlv id body).
Proof.
  unfold tlv. rewrite zlen_cons, zlen_app. pose proof (zlen_nonneg (der_len (zlen body))). lia.
Qed.

Lemma zlen_lt_tlv K id body : zlen (tlv id body) < K -> zlen body < K.
Proof. pose proof (zlen_tlv id body). lia. Qed.

Lemma zlen_lt_app_l {A} K (a b : list A) : zlen (a ++ b) < K -> zlen a < K.
Proof. rewrite zlen_app. pose proof (zlen_nonneg b). lia. Qed.

Lemma zlen_lt_app_r {A} K (a b : list A) : zlen (a ++ b) < K -> zlen b < K.
Proof. rewrite zlen_app. pose proof (zlen_nonneg a). lia. Qed.

Lemma tlv_wf id body : 0 <= id < 256 -> zlen (tlv id body) < 2 ^ 32 -> wf_bytes body -> wf_bytes (tlv id body).
Proof.
  intros Hi Hb Hw. apply zlen_lt_tlv in Hb. unfold tlv. apply wf_bytes_cons. split; [exact Hi|].
  apply wf_bytes_app. split; [|exact Hw]. apply der_len_wf. pose proof (zlen_nonneg body). lia.
Qed.

Lemma tlv_wf_inv id body rest : wf_bytes (tlv id body ++ rest) -> wf_bytes body /\ wf_bytes rest.
Proof.
  intros H. apply wf_bytes_app in H. destruct H as [H Hr]. split; [|exact Hr].
  unfold tlv in H. apply wf_bytes_cons in H. destruct H as [_ H]. apply wf_bytes_app in H. tauto.
Qed.

Definition int_bound (f : nat) (z : Z) : Prop := -128 * 256 ^ Z.of_nat f <= z < 128 * 256 ^ Z.of_nat f.

Lemma zfuel_int z : int_bound (zfuel z) z.
Proof.
  unfold int_bound. pose proof (zfuel_spec z). pose proof (pow_base_le 256 (zfuel z)). lia.
Qed.

Lemma int_bound_0 z : int_bound 0 z -> small_int z = true.
Proof. unfold int_bound, small_int. change (256 ^ Z.of_nat 0) with 1. lia. Qed.

Lemma int_bound_S f z : int_bound (S f) z -> int_bound f (z / 256).
Proof.
  unfold int_bound. rewrite pow_succ_nat. pose proof (pow_pos_nat 256 f).
  set (p := 256 ^ Z.of_nat f) in *. lia.
Qed.

Lemma int_be_small f z acc : small_int z = true -> int_be f z acc = z mod 256 :: acc.
Proof. intros S. destruct f; cbn [int_be]; rewrite S; reflexivity. Qed.

Lemma int_be_step f z acc : small_int z = false -> int_be (S f) z acc = int_be f (z / 256) (z mod 256 :: acc).
Proof. intros S. cbn [int_be]. rewrite S. reflexivity. Qed.

(* what the octets already written say about the rest z of the number: the last one written together with z is
   not small, so the octet written next is no redundant sign octet *)
Definition int_inv (z : Z) (acc : bytes) : Prop :=
  match acc with [] => True | a :: _ => 0 <= a < 256 /\ small_int (256 * z + a) = false end.

Definition int_good (z : Z) (acc l : bytes) : Prop :=
  l <> [] /\ wf_bytes l /\ sbe l = be_val_acc z acc /\ int_minimal l = true.

Lemma int_be_last z acc : small_int z = true -> wf_bytes acc -> int_inv z acc -> int_good z acc (z mod 256 :: acc).
Proof.
  intros S Hw Hi. split; [discriminate|]. split; [apply wf_bytes_cons; split; [lia | exact Hw]|].
  split.
  - cbn [sbe]. f_equal. unfold small_int in S. destruct (Z.ltb_spec (z mod 256) 128); lia.
  - destruct acc as [|a acc]; [reflexivity|]. cbn [int_inv] in Hi. unfold int_minimal, small_int in *. lia.
Qed.

Lemma int_be_spec f : forall z acc, int_bound f z -> wf_bytes acc -> int_inv z acc -> int_good z acc (int_be f z acc).
Proof.
  induction f as [|f IH]; intros z acc H Hw Hi; destruct (small_int z) eqn:S.
  - rewrite int_be_small by exact S. apply int_be_last; assumption.
  - apply int_bound_0 in H. congruence.
  - rewrite int_be_small by exact S. apply int_be_last; assumption.
  - rewrite int_be_step by exact S.
    destruct (IH (z / 256) (z mod 256 :: acc)) as (Hne & Hwf & Hv & Hm).
    + apply int_bound_S, H.
    + apply wf_bytes_cons. split; [lia | exact Hw].
    + cbn [int_inv]. split; [lia|]. replace (256 * (z / 256) + z mod 256) with z by lia. exact S.
    + repeat split; auto. rewrite Hv. cbn [be_val_acc]. f_equal. lia.
Qed.

Lemma enc_int_good z : int_good z [] (enc_int z).
Proof. apply int_be_spec; [apply zfuel_int | constructor | exact I]. Qed.

Theorem dec_int_enc_int z : dec_int (enc_int z) = Some z.
Proof.
  destruct (enc_int_good z) as (Hne & Hw & Hv & Hm). apply wf_bytesb_iff in Hw. unfold dec_int.
  destruct (enc_int z) as [|x l]; [congruence|]. rewrite Hw, Hm, Hv. reflexivity.
Qed.

Lemma enc_int_nonempty z : enc_int z <> [].
Proof. apply enc_int_good. Qed.

Lemma enc_int_wf z : wf_bytes (enc_int z).
Proof. apply enc_int_good. Qed.

Lemma sbe_snoc l y : l <> [] -> sbe (l ++ [y]) = sbe l * 256 + y.
Proof.
  destruct l as [|b l]; [congruence|]. intros _. cbn [app sbe]. rewrite be_val_acc_app. reflexivity.
Qed.

Lemma be_val_acc_far c r : wf_bytes r ->
  (128 <= c -> 128 <= be_val_acc c r) /\ (c < -128 -> be_val_acc c r < -128).
Proof.
  intros H; revert c; induction H as [|x r Hx Hr IH]; intros c; cbn [be_val_acc]; [lia|].
  specialize (IH (c * 256 + x)). lia.
Qed.

Lemma int_minimal_not_small b0 b1 r :
  wf_bytes (b0 :: b1 :: r) -> int_minimal (b0 :: b1 :: r) = true -> small_int (sbe (b0 :: b1 :: r)) = false.
Proof.
  intros Hw Hm. apply wf_bytes_cons in Hw. destruct Hw as [H0 Hw].
  apply wf_bytes_cons in Hw. destruct Hw as [H1 Hw].
  cbn [sbe be_val_acc]. unfold int_minimal in Hm.
  pose proof (be_val_acc_far ((if b0 <? 128 then b0 else b0 - 256) * 256 + b1) r Hw) as [Ha Hb].
  unfold small_int. destruct (Z.ltb_spec b0 128); lia.
Qed.

Lemma int_be_canon l : l <> [] -> wf_bytes l -> int_minimal l = true ->
  forall f acc, int_bound f (sbe l) -> int_be f (sbe l) acc = l ++ acc.
Proof.
  induction l as [|y l IH] using rev_ind; intros Hne Hw Hm f acc Hf; [congruence|].
  apply wf_bytes_app in Hw. destruct Hw as [Hwl Hy]. apply wf_bytes_cons in Hy. destruct Hy as [Hy _].
  destruct l as [|b0 l].
  - cbn [app sbe be_val_acc] in *.
    assert (S : small_int (if y <? 128 then y else y - 256) = true)
      by (unfold small_int; destruct (Z.ltb_spec y 128); lia).
    rewrite int_be_small by exact S. f_equal. destruct (Z.ltb_spec y 128); lia.
  - assert (Hwall : wf_bytes ((b0 :: l) ++ [y])).
    { apply wf_bytes_app; split; auto; apply wf_bytes_cons; split; [lia | constructor]. }
    assert (Hns : small_int (sbe ((b0 :: l) ++ [y])) = false).
    { destruct l as [|b1 l]; cbn [app] in *; apply int_minimal_not_small; auto. }
    assert (Hml : int_minimal (b0 :: l) = true).
    { destruct l as [|b1 l]; [reflexivity|]. exact Hm. }
    rewrite sbe_snoc in * by discriminate.
    destruct f as [|f]; [apply int_bound_0 in Hf; congruence|].
    rewrite int_be_step by exact Hns.
    pose proof (int_bound_S _ _ Hf) as Hf'.
    replace ((sbe (b0 :: l) * 256 + y) / 256) with (sbe (b0 :: l)) in * by lia.
    replace ((sbe (b0 :: l) * 256 + y) mod 256) with y by lia.
    rewrite IH by (auto; discriminate). rewrite <- app_assoc. reflexivity.
Qed.

Theorem dec_int_canon b z : dec_int b = Some z -> enc_int z = b.
Proof.
  unfold dec_int. destruct b as [|x b]; [discriminate|].
  destruct (wf_bytesb (x :: b)) eqn:Hw; [|discriminate]. destruct (int_minimal (x :: b)) eqn:Hm; [|discriminate].
  cbn [andb]. intros H. assert (Hz : sbe (x :: b) = z) by congruence. clear H. rewrite <- Hz. unfold enc_int.
  rewrite int_be_canon; [apply app_nil_r | discriminate | apply wf_bytesb_iff, Hw | exact Hm | apply zfuel_int].
Qed.
