(* C03 in bytes mode (model/SpnegoBytes.v).  The lenient decoders (base64, OBJECT IDENTIFIER, GSS-API framing, the two
   negotiation tokens, the KRB5 token) read back what gokrb5's Marshal writes (model/Framing.v with the RFC 4178 schemas);
   on such a header the response is that of model/Spnego.v, the AP-REQ verdict being that of C01's sealed-content model;
   for every header value the handler runs only for an AP-REQ that verify_apreq_bytes accepts; what does not decode gets
   401 with a challenge, and nothing panics. *)
From Coq Require Import ZifyBool.
From Gokrb5.lib Require Import Bytes JV.
From Gokrb5.model Require Import Keytab Crypto Replay Schema DER DERCodec RFCSchemas GoASN1 Framing APReq APReqBytes
     Spnego SpnegoBytes.
From Gokrb5.proofs Require Import DERBasic DEROid DERProofs GoASN1Proofs APReqProofs APReqBytesProofs SpnegoProofs.
Local Ltac Zify.zify_post_hook ::= Z.div_mod_to_equations.

Local Open Scope Z_scope.

Lemma b64_val_char i : 0 <= i < 64 -> b64_val (b64_char i) = Some i.
Proof.
  intros H. unfold b64_char, b64_val.
  destruct (Z.ltb_spec i 26); [replace ((65 <=? 65 + i) && (65 + i <=? 90)) with true by lia; f_equal; lia|].
  destruct (Z.ltb_spec i 52).
  { replace ((65 <=? 71 + i) && (71 + i <=? 90)) with false by lia.
    replace ((97 <=? 71 + i) && (71 + i <=? 122)) with true by lia. f_equal; lia. }
  destruct (Z.ltb_spec i 62).
  { replace ((65 <=? i - 4) && (i - 4 <=? 90)) with false by lia.
    replace ((97 <=? i - 4) && (i - 4 <=? 122)) with false by lia.
    replace ((48 <=? i - 4) && (i - 4 <=? 57)) with true by lia. f_equal; lia. }
  destruct (Z.eqb_spec i 62); [subst; reflexivity|].
  assert (i = 63) by lia. subst. reflexivity.
Qed.

Lemma b64_char_not_nl i : 0 <= i < 64 -> is_nl (b64_char i) = false.
Proof.
  intros H. unfold b64_char, is_nl.
  destruct (Z.ltb_spec i 26); [lia|]. destruct (Z.ltb_spec i 52); [lia|]. destruct (Z.ltb_spec i 62); [lia|].
  destruct (Z.eqb_spec i 62); reflexivity.
Qed.

Lemma wf_bytes_ind3 (P : bytes -> Prop) :
  P [] -> (forall x, 0 <= x < 256 -> P [x]) -> (forall x y, 0 <= x < 256 -> 0 <= y < 256 -> P [x; y]) ->
  (forall x y z r, 0 <= x < 256 -> 0 <= y < 256 -> 0 <= z < 256 -> P r -> P (x :: y :: z :: r)) ->
  forall l, wf_bytes l -> P l.
Proof.
  intros H0 H1 H2 H3.
  assert (G : forall l, wf_bytes l -> P l /\ (forall x, 0 <= x < 256 -> P (x :: l)) /\
                        (forall x y, 0 <= x < 256 -> 0 <= y < 256 -> P (x :: y :: l))).
  { induction l as [|a l IH]; intros Hwf; [auto|].
    apply wf_bytes_cons in Hwf. destruct Hwf as [Ha Hl]. destruct (IH Hl) as (IH0 & IH1 & IH2). auto. }
  intros l Hl. apply G, Hl.
Qed.

Lemma b64_quanta_full c0 c1 c2 c3 rest v0 v1 v2 v3 :
  b64_val c0 = Some v0 -> b64_val c1 = Some v1 -> b64_val c2 = Some v2 -> b64_val c3 = Some v3 ->
  b64_quanta (c0 :: c1 :: c2 :: c3 :: rest) =
  match b64_quanta rest with
  | Some o => Some (v0 * 4 + v1 / 16 :: (v1 mod 16) * 16 + v2 / 4 :: (v2 mod 4) * 64 + v3 :: o)
  | None => None
  end.
Proof. intros E0 E1 E2 E3. cbn [b64_quanta]. rewrite E0, E1, E2, E3. reflexivity. Qed.

Lemma b64_encode_no_nl b : wf_bytes b -> filter (fun c => negb (is_nl c)) (b64_encode b) = b64_encode b.
Proof.
  induction 1 as [| x Hx | x y Hx Hy | x y z r Hx Hy Hz IH] using wf_bytes_ind3;
    cbn [b64_encode filter]; rewrite ?b64_char_not_nl by lia; cbn [negb]; rewrite ?IH; reflexivity.
Qed.

Lemma b64_quanta_encode b : wf_bytes b -> b64_quanta (b64_encode b) = Some b.
Proof.
  induction 1 as [| x Hx | x y Hx Hy | x y z r Hx Hy Hz IH] using wf_bytes_ind3; cbn [b64_encode].
  - reflexivity.
  - cbn [b64_quanta]. rewrite !b64_val_char by lia. change (b64_val b64_pad) with (@None Z).
    cbn [is_nil andb Z.eqb Pos.eqb b64_pad]. f_equal. f_equal. lia.
  - cbn [b64_quanta]. rewrite !b64_val_char by lia. change (b64_val b64_pad) with (@None Z).
    cbn [is_nil andb Z.eqb Pos.eqb b64_pad]. f_equal. f_equal; [lia|]. f_equal. lia.
  - rewrite (b64_quanta_full _ _ _ _ _ (x / 4) ((x mod 4) * 16 + y / 16) ((y mod 16) * 4 + z / 64) (z mod 64))
      by (apply b64_val_char; lia).
    rewrite IH. f_equal. f_equal; [lia|]. f_equal; [lia|]. f_equal. lia.
Qed.

(* base64.StdEncoding.DecodeString(EncodeToString(b)) = b *)
Theorem b64_decode_encode b : wf_bytes b -> b64_decode (b64_encode b) = Some b.
Proof. intros H. unfold b64_decode. rewrite b64_encode_no_nl by exact H. apply b64_quanta_encode, H. Qed.

Example b64_ex :
  b64_encode [65] = [81; 81; 61; 61] /\ b64_encode [65; 66] = [81; 85; 73; 61] /\ b64_encode [251; 255; 191] = [43; 47; 43; 47] /\
  b64_decode [81; 10; 81; 13; 61; 10; 61; 10] = Some [65] /\            (* newlines are skipped, even inside the padding *)
  b64_decode [81; 82; 61; 61] = Some [65] /\                            (* unused bits are not checked *)
  b64_decode [81; 81] = None /\ b64_decode [81; 81; 61] = None /\       (* padding is mandatory *)
  b64_decode [81; 81; 61; 61; 81; 81; 61; 61] = None /\                 (* nothing after the padding *)
  b64_decode [81; 85; 32; 74; 68] = None /\ b64_decode [45; 95; 45; 95] = None.   (* no blanks, not the URL alphabet *)
Proof. repeat split; reflexivity. Qed.

Definition arc_small (x : Z) : bool := (0 <=? x) && (x <? 2 ^ 28).

Lemma base128_step n x r acc : 128 <= x < 256 ->
  base128 (S n) (x :: r) acc = base128 n r (acc * 128 + (x - 128)).
Proof.
  intros H. cbn [base128]. replace (x <? 128) with false by lia. replace (x mod 128) with (x - 128) by lia. reflexivity.
Qed.

Lemma base128_last n x r acc : 0 <= x < 128 -> base128 (S n) (x :: r) acc = Some (acc * 128 + x, r).
Proof.
  intros H. cbn [base128]. replace (x <? 128) with true by lia. replace (x mod 128) with x by lia. reflexivity.
Qed.

Lemma base128_enc_b128 n r : arc_small n = true -> base128 4 (enc_b128 n ++ r) 0 = Some (n, r).
Proof.
  unfold arc_small. intros H. assert (Hn : 0 <= n < 2 ^ 28) by lia. clear H.
  rewrite enc_b128_B by lia.
  destruct (Z.eq_dec (n / 128) 0) as [E1|E1].
  { rewrite E1, B_0. cbn [app]. rewrite base128_last by lia. f_equal. f_equal. lia. }
  rewrite B_step by lia.
  destruct (Z.eq_dec (n / 128 / 128) 0) as [E2|E2].
  { rewrite E2, B_0. cbn [app]. rewrite base128_step by lia. rewrite base128_last by lia. f_equal. f_equal. lia. }
  rewrite B_step by lia.
  destruct (Z.eq_dec (n / 128 / 128 / 128) 0) as [E3|E3].
  { rewrite E3, B_0. cbn [app]. rewrite !base128_step by lia. rewrite base128_last by lia. f_equal. f_equal. lia. }
  rewrite B_step by lia.
  assert (E4 : n / 128 / 128 / 128 / 128 = 0) by lia.
  rewrite E4, B_0. cbn [app]. rewrite !base128_step by lia. rewrite base128_last by lia. f_equal. f_equal. lia.
Qed.

Lemma enc_b128_length n : 0 <= n -> (1 <= length (enc_b128 n))%nat.
Proof.
  intros H. rewrite enc_b128_B by exact H. rewrite <- (app_nil_l [n mod 128]), B_app, app_length. cbn [length]. lia.
Qed.

Lemma length_pos_ne {A} (a b : list A) : (1 <= length a)%nat -> a ++ b <> [].
Proof. destruct a; cbn [length app]; [lia | discriminate]. Qed.

Lemma garcs_S n b : b <> [] ->
  garcs (S n) b =
  match base128 4 b 0 with
  | Some (v, r) => match garcs n r with Some l => Some (v :: l) | None => None end
  | None => None
  end.
Proof. destruct b; [contradiction | reflexivity]. Qed.

Lemma goid_ne b : b <> [] ->
  goid b =
  match base128 4 b 0 with
  | Some (v, r) =>
    match garcs (length r) r with
    | Some l => Some (if v <? 80 then v / 40 :: v mod 40 :: l else 2 :: v - 80 :: l)
    | None => None
    end
  | None => None
  end.
Proof. destruct b; [contradiction | reflexivity]. Qed.

Lemma garcs_flat_map l : forall n : nat, forallb arc_small l = true ->
  (length (flat_map enc_b128 l) <= n)%nat -> garcs n (flat_map enc_b128 l) = Some l.
Proof.
  induction l as [|x l IH]; intros n Hs Hn.
  - destruct n; reflexivity.
  - cbn [forallb] in Hs. apply andb_true_iff in Hs. destruct Hs as [Hx Hl]. cbn [flat_map] in *.
    assert (Hlen : (1 <= length (enc_b128 x))%nat) by (apply enc_b128_length; unfold arc_small in Hx; lia).
    rewrite app_length in Hn. destruct n as [|n]; [lia|].
    rewrite garcs_S by (apply length_pos_ne, Hlen). rewrite base128_enc_b128 by exact Hx.
    rewrite IH; auto. lia.
Qed.

Definition oid_small (arcs : list Z) : bool :=
  match arcs with
  | a :: b :: r => arc_small (40 * a + b) && forallb arc_small r
  | _ => false
  end.

(* gofork reads back the arcs of a DER OBJECT IDENTIFIER whose sub-identifiers fit 28 bits (4 octets) *)
Theorem goid_enc_oid arcs o : enc_oid arcs = Some o -> oid_small arcs = true -> goid o = Some arcs.
Proof.
  intros He Hs. pose proof (enc_oid_ok _ _ He) as Hok. unfold enc_oid in He.
  destruct arcs as [|a [|b r]]; try discriminate. rewrite Hok in He. apply some_inj in He. subst o.
  cbn [oid_small] in Hs. apply andb_true_iff in Hs. destruct Hs as [Hv Hr].
  assert (Hlen : (1 <= length (enc_b128 (40 * a + b)))%nat) by (apply enc_b128_length; unfold arc_small in Hv; lia).
  rewrite goid_ne by (apply length_pos_ne, Hlen). rewrite base128_enc_b128 by exact Hv.
  rewrite garcs_flat_map; auto.
  unfold oid_ok in Hok. 
  destruct (Z.ltb_spec (40 * a + b) 80).
  - f_equal. f_equal; [lia|]. f_equal. lia.
  - f_equal. f_equal; [lia|]. f_equal. lia.
Qed.

Example goid_ex :
  goid [42; 134; 72; 134; 247; 18; 1; 2; 2] = Some rfc_oid_krb5 /\
  goid [42; 134; 72; 134; 247; 18; 1; 2; 128; 128; 128; 2] = Some rfc_oid_krb5 /\      (* not minimal: accepted *)
  goid [42; 134; 72; 134; 247; 18; 1; 2; 128; 128; 128; 128; 2] = None /\              (* five octets: too large *)
  goid [43; 6; 1; 5; 5; 2] = Some rfc_oid_spnego /\ goid [] = None /\ goid [43; 134] = None /\
  oid_small rfc_oid_krb5 = true /\ oid_small rfc_oid_spnego = true /\ oid_small oid_ms_krb5 = true.
Proof. repeat split; reflexivity. Qed.

Lemma xelem_tlv {A} utag ucons (dec : bytes -> option A) opt orig id body rest v :
  id mod 32 <> 31 -> zlen body < 2 ^ 31 ->
  id / 64 = 0 -> id mod 32 = utag -> ((id / 32) mod 2 =? 1) = ucons -> dec body = Some v ->
  xelem utag ucons dec opt orig (tlv id body ++ rest) = Some (Some v, rest).
Proof.
  intros Hid Hb Hc Ht Hk Hd. unfold xelem. rewrite ghdr_tlv by assumption. unfold hdr_id.
  cbn [h_cls h_tag h_cons h_len]. rewrite Hc, Ht, Hk, Z.eqb_refl, Z.eqb_refl, Bool.eqb_reflx. cbn [andb].
  rewrite splitz_app, Hd. reflexivity.
Qed.

(* xfield on a non-empty input: the first test of parseField (sequence truncated) is passed *)
Lemma xfield_ne {A} ecls n utag ucons (dec : bytes -> option A) opt b : b <> [] ->
  xfield ecls n utag ucons dec opt b =
  match ghdr b with
  | None => None
  | Some (h, r) =>
    match r with
    | [] => None
    | _ :: _ =>
      if (h_cls h =? ecls) && (h_tag h =? n) && ((h_len h =? 0) || h_cons h) then
        if h_len h =? 0 then None else xelem utag ucons dec opt b r
      else if opt then Some (None, b) else None
    end
  end.
Proof. destruct b; [contradiction | reflexivity]. Qed.

Lemma xfield_tlv {A} ecls n utag ucons (dec : bytes -> option A) opt id body extra rest v :
  (ecls = 1 \/ ecls = 2) -> gtag_ok n = true ->
  id mod 32 <> 31 -> id / 64 = 0 -> id mod 32 = utag -> ((id / 32) mod 2 =? 1) = ucons ->
  zlen (tlv id body ++ extra) < 2 ^ 31 -> dec body = Some v ->
  xfield ecls n utag ucons dec opt (tlv (ident ecls true n) (tlv id body ++ extra) ++ rest) = Some (Some v, extra ++ rest).
Proof.
  intros Hc Hn Hid Hcl Ht Hk Hl Hd.
  assert (Hi : ident ecls true n mod 32 <> 31 /\ hdr_id (ident ecls true n) = mkHdr ecls true n).
  { destruct Hc; subst; [apply ident_app | apply ident_ctx]; exact Hn. }
  destruct Hi as [Hi Hh].
  pose proof (zlen_tlv id body) as Hz. pose proof (zlen_nonneg body). pose proof (zlen_nonneg extra).
  rewrite zlen_app in Hl.
  rewrite xfield_ne by apply tlv_app_nonempty. rewrite ghdr_tlv by (auto; rewrite zlen_app; lia).
  rewrite Hh. cbn [h_cls h_tag h_len h_cons].
  rewrite match_app_nonempty by apply tlv_app_nonempty. rewrite !Z.eqb_refl. cbn [andb orb].
  replace (zlen (tlv id body ++ extra) =? 0) with false by (rewrite zlen_app; lia). cbn [andb orb].
  rewrite <- app_assoc. apply xelem_tlv; auto. lia.
Qed.

Lemma xfield_tlv0 {A} ecls n utag ucons (dec : bytes -> option A) opt id body rest v :
  (ecls = 1 \/ ecls = 2) -> gtag_ok n = true ->
  id mod 32 <> 31 -> id / 64 = 0 -> id mod 32 = utag -> ((id / 32) mod 2 =? 1) = ucons ->
  zlen (tlv id body) < 2 ^ 31 -> dec body = Some v ->
  xfield ecls n utag ucons dec opt (tlv (ident ecls true n) (tlv id body) ++ rest) = Some (Some v, rest).
Proof.
  intros Hc Hn Hid Hcl Ht Hk Hl Hd. rewrite <- (app_nil_r (tlv id body)).
  apply (xfield_tlv ecls n utag ucons dec opt id body [] rest v); auto. rewrite app_nil_r. exact Hl.
Qed.

Lemma xelem_seq opt orig body rest : zlen body < 2 ^ 31 ->
  xelem 16 true Some opt orig (tlv 48 body ++ rest) = Some (Some body, rest).
Proof. intros H. apply xelem_tlv; auto; reflexivity || lia. Qed.

(* an absent OPTIONAL field: the next element carries another context tag, or nothing is left *)
Lemma xfield_absent {A} n utag ucons (dec : bytes -> option A) b :
  (b = [] \/ exists n' body' rest', n' <> n /\ gtag_ok n' = true /\ body' <> [] /\ zlen body' < 2 ^ 31 /\
                                    b = tlv (ident 2 true n') body' ++ rest') ->
  xfield 2 n utag ucons dec true b = Some (None, b).
Proof.
  intros [->|(n' & body' & rest' & Hne & Hn' & Hb & Hl & ->)]; [reflexivity|].
  destruct (ident_ctx n' Hn') as [Hid Hh].
  rewrite xfield_ne by apply tlv_app_nonempty. rewrite ghdr_tlv by assumption. rewrite Hh. cbn [h_cls h_tag h_len h_cons].
  rewrite match_app_nonempty by exact Hb.
  replace (n' =? n) with false by lia. rewrite andb_false_r. reflexivity.
Qed.

Theorem gss_oid_frame mech inner b rest :
  gss_frame mech inner = Some b -> oid_small mech = true -> zlen b < 2 ^ 31 ->
  gss_oid (b ++ rest) = Some (mech, inner ++ rest).
Proof.
  intros HF Hs Hl. unfold gss_frame in HF. destruct (enc_oid mech) as [o|] eqn:Eo; [|discriminate].
  apply some_inj in HF. subst b. unfold gss_oid.
  pose proof (zlen_tlv (ident 1 true 0) (tlv 6 o ++ inner)).
  rewrite (xfield_tlv 1 0 6 false goid false 6 o inner rest mech); auto; try reflexivity; try lia.
  apply goid_enc_oid; assumption.
Qed.

Lemma oid_eqb_refl a : oid_eqb a a = true.
Proof. induction a as [|x a IH]; [reflexivity|]. cbn [oid_eqb]. rewrite Z.eqb_refl, IH. reflexivity. Qed.

Lemma oid_eqb_eq a : forall b, oid_eqb a b = true -> a = b.
Proof.
  induction a as [|x a IH]; intros [|y b] H; try discriminate; [reflexivity|].
  cbn [oid_eqb] in H. apply andb_true_iff in H. destruct H as [H1 H2]. f_equal; [lia | apply IH, H2].
Qed.

Lemma goids_S n b : b <> [] ->
  goids (S n) b =
  match xelem 6 false goid false b b with
  | Some (Some o, r) => match goids n r with Some l => Some (o :: l) | None => None end
  | _ => None
  end.
Proof. destruct b; [contradiction | reflexivity]. Qed.

Lemma goids_enc mechs : forall n : nat, forallb oid_ok mechs = true -> forallb oid_small mechs = true ->
  zlen (flat_map (enc TOid) (map VOid mechs)) < 2 ^ 31 ->
  (length (flat_map (enc TOid) (map VOid mechs)) <= n)%nat ->
  goids n (flat_map (enc TOid) (map VOid mechs)) = Some mechs.
Proof.
  induction mechs as [|m ms IH]; intros n Hok Hsm Hl Hn.
  - destruct n; reflexivity.
  - cbn [forallb] in Hok, Hsm. apply andb_true_iff in Hok. destruct Hok as [Hm1 Hok].
    apply andb_true_iff in Hsm. destruct Hsm as [Hm2 Hsm].
    destruct (oid_ok_enc m Hm1) as [o Eo].
    cbn [map flat_map] in *.
    change (enc TOid (VOid m)) with (tlv 6 (match enc_oid m with Some x => x | None => [] end)) in *. rewrite Eo in *.
    rewrite app_length in Hn. rewrite zlen_app in Hl.
    pose proof (zlen_tlv 6 o). pose proof (zlen_nonneg o). pose proof (zlen_nonneg (flat_map (enc TOid) (map VOid ms))).
    assert (L : (1 <= length (tlv 6 o))%nat) by (unfold tlv; cbn [length]; lia).
    destruct n as [|n]; [lia|].
    rewrite goids_S by apply tlv_app_nonempty. rewrite (xelem_tlv 6 false goid false _ 6 o _ m); auto; try reflexivity; try lia.
    + rewrite IH; auto; lia.
    + apply goid_enc_oid; assumption.
Qed.

Definition j_flags (f : option (Z * bytes)) : option value := option_map (fun x => VBits (fst x) (snd x)) f.
Definition flags_ok (f : option (Z * bytes)) : bool := match f with Some (u, b) => gbits_ok u b | None => true end.

(* the value gokrb5's NegTokenInit.Marshal encodes (RFC 4178 4.2.1) *)
Definition init_value (mechs : list (list Z)) (flags : option (Z * bytes)) (token : bytes) (mic : option bytes) : value :=
  VSeq [Some (VList (map VOid mechs)); j_flags flags; Some (VBytes token); option_map VBytes mic].

(* ... and NegTokenResp.Marshal (RFC 4178 4.2.2), negState present *)
Definition resp_value (state : Z) (mech : option (list Z)) (token : bytes) (mic : option bytes) : value :=
  VSeq [Some (VInt state); option_map VOid mech; Some (VBytes token); option_map VBytes mic].

(* the trailing fields of both tokens have Go types GoASN1.v knows *)
Lemma gfields_tail fuel fs vs :
  gfields_ok gok fs = true -> wfg_fields wfg fs vs = true ->
  fits31 fuel (enc_fields enc (erase_fields fs) vs) ->
  gfields (DD fuel) fs (enc_fields enc (erase_fields fs) vs) = Some (vs, []).
Proof.
  intros Hok Hwf Hfit. rewrite <- (app_nil_r (enc_fields enc (erase_fields fs) vs)).
  apply (gfields_enc fuel fs); auto. apply Forall_forall. intros f _ H1 H2. apply gdec_enc; assumption.
Qed.

Lemma fits31_self b : zlen b < 2 ^ 31 -> fits31 (S (length b)) b.
Proof. intros H. split; [exact H | unfold zlen; lia]. Qed.

(* NegTokenInit: [0] mechTypes, then reqFlags / mechToken / mechListMIC *)
Definition init_tail_vals (flags : option (Z * bytes)) (token : bytes) (mic : option bytes) : list (option value) :=
  [j_flags flags; Some (VBytes token); option_map VBytes mic].

Lemma enc_init_value mechs flags token mic :
  enc rfc_NegTokenInit (init_value mechs flags token mic) =
  tlv 48 (tlv (ident 2 true 0) (tlv 48 (flat_map (enc TOid) (map VOid mechs)))
          ++ enc_fields enc (erase_fields init_tail) (init_tail_vals flags token mic)).
Proof. reflexivity. Qed.

Lemma wf_init_inv mechs flags token mic : wf_val rfc_NegTokenInit (init_value mechs flags token mic) = true ->
  forallb oid_ok mechs = true.
Proof.
  unfold rfc_NegTokenInit, init_value. cbn [wf_val wf_fields req opt]. intros H.
  apply andb_true_iff in H. destruct H as [H _]. rewrite forallb_forall in *.
  intros m Hm. apply (H (VOid m)), in_map, Hm.
Qed.

Lemma wfg_init_tail flags token mic : flags_ok flags = true ->
  wfg_fields wfg init_tail (init_tail_vals flags token mic) = true.
Proof.
  intros Hfl. unfold init_tail, init_tail_vals, gopt. cbn [wfg_fields wfg].
  destruct flags as [[u b]|]; cbn [j_flags option_map fst snd flags_ok] in *; [rewrite Hfl|]; destruct mic; reflexivity.
Qed.

Theorem neg_init_dec_enc mechs flags token mic rest :
  wf_val rfc_NegTokenInit (init_value mechs flags token mic) = true ->
  forallb oid_small mechs = true -> flags_ok flags = true ->
  zlen (enc rfc_NegTokenInit (init_value mechs flags token mic)) < 2 ^ 31 ->
  neg_init_dec (enc rfc_NegTokenInit (init_value mechs flags token mic) ++ rest) = Some (RInit mechs (Some token)).
Proof.
  intros Hwf Hsm Hfl Hlen. pose proof (wf_init_inv _ _ _ _ Hwf) as Hok. rewrite enc_init_value in *.
  set (ML := flat_map (enc TOid) (map VOid mechs)) in *.
  set (TL := enc_fields enc (erase_fields init_tail) (init_tail_vals flags token mic)) in *.
  (* every piece of the token is below 2^31 because the token is *)
  pose proof (zlen_lt_tlv _ _ _ Hlen) as HB. pose proof (fits31_self _ HB) as HfB.
  pose proof (zlen_lt_tlv _ _ _ (zlen_lt_app_l _ _ _ HB)) as HM.
  unfold neg_init_dec. rewrite xelem_seq by exact HB. cbn [obind fst snd].
  rewrite (xfield_tlv0 2 0 16 true (fun l => goids (length l) l) false 48 ML TL mechs); auto; try reflexivity; try lia.
  2: { apply goids_enc; [assumption | assumption | eapply zlen_lt_tlv, HM | reflexivity]. }
  cbn [obind fst snd].
  rewrite (gfields_tail _ init_tail (init_tail_vals flags token mic));
    [reflexivity | reflexivity | apply wfg_init_tail, Hfl | eapply fits_app_r, HfB].
Qed.

(* NegTokenResp: [0] negState, [1] supportedMech OPTIONAL, then responseToken / mechListMIC *)
Definition resp_mech_bytes (mech : option (list Z)) : bytes :=
  match mech with Some m => tlv (ident 2 true 1) (enc TOid (VOid m)) | None => [] end.
Definition resp_tail_vals (token : bytes) (mic : option bytes) : list (option value) :=
  [Some (VBytes token); option_map VBytes mic].

Lemma enc_resp_value state mech token mic :
  enc rfc_NegTokenResp (resp_value state mech token mic) =
  tlv 48 (tlv (ident 2 true 0) (tlv 10 (enc_int state)) ++ resp_mech_bytes mech
          ++ enc_fields enc (erase_fields resp_tail) (resp_tail_vals token mic)).
Proof. destruct mech; reflexivity. Qed.

Lemma wf_resp_inv state mech token mic : wf_val rfc_NegTokenResp (resp_value state mech token mic) = true ->
  match mech with Some m => oid_ok m = true | None => True end.
Proof.
  destruct mech as [m|]; [|trivial]. unfold rfc_NegTokenResp, resp_value. cbn [wf_val wf_fields opt option_map].
  intros H. apply andb_true_iff in H. destruct H as [_ H]. apply andb_true_iff in H. apply H.
Qed.

(* the responseToken is always present, so what follows the optional mech starts with context tag 2 *)
Lemma resp_tail_head token mic :
  enc_fields enc (erase_fields resp_tail) (resp_tail_vals token mic) =
  tlv (ident 2 true 2) (tlv 4 token) ++ enc_fields enc [opt 3 TOctets] [option_map VBytes mic].
Proof. reflexivity. Qed.

(* supportedMech, present or absent, in front of any element with another context tag *)
Lemma xfield_resp_mech mech n' body' more :
  match mech with Some m => oid_ok m = true /\ oid_small m = true | None => True end ->
  n' <> 1 -> gtag_ok n' = true -> body' <> [] ->
  zlen (resp_mech_bytes mech ++ tlv (ident 2 true n') body' ++ more) < 2 ^ 31 ->
  xfield 2 1 6 false goid true (resp_mech_bytes mech ++ tlv (ident 2 true n') body' ++ more) =
  Some (mech, tlv (ident 2 true n') body' ++ more).
Proof.
  intros Hm Hn Hn' Hb Hl. destruct mech as [m|]; cbn [resp_mech_bytes] in *.
  - destruct Hm as [Hok Hsm]. destruct (oid_ok_enc m Hok) as [o Eo]. cbn [enc] in *. rewrite Eo in *.
    apply xfield_tlv0; auto; try reflexivity; try lia; [eapply zlen_lt_tlv, zlen_lt_app_l, Hl | apply goid_enc_oid; assumption].
  - cbn [app] in *. apply xfield_absent. right. exists n', body', more.
    repeat split; auto. eapply zlen_lt_tlv, zlen_lt_app_l, Hl.
Qed.

Theorem neg_resp_dec_enc state mech token mic rest :
  wf_val rfc_NegTokenResp (resp_value state mech token mic) = true ->
  int32_ok state = true -> (match mech with Some m => oid_small m = true | None => True end) ->
  zlen (enc rfc_NegTokenResp (resp_value state mech token mic)) < 2 ^ 31 ->
  neg_resp_dec (enc rfc_NegTokenResp (resp_value state mech token mic) ++ rest) = Some (RResp mech (Some token)).
Proof.
  intros Hwf Hst Hsm Hlen. pose proof (wf_resp_inv _ _ _ _ Hwf) as Hok. rewrite enc_resp_value in *.
  set (TL := enc_fields enc (erase_fields resp_tail) (resp_tail_vals token mic)) in *.
  pose proof (zlen_lt_tlv _ _ _ Hlen) as HB. pose proof (fits31_self _ HB) as HfB.
  unfold neg_resp_dec. rewrite xelem_seq by exact HB. cbn [obind fst snd].
  rewrite (xfield_tlv0 2 0 10 false (gint 4) false 10 (enc_int state) _ (VInt state)); auto; try reflexivity; try lia.
  2: { eapply zlen_lt_tlv, zlen_lt_app_l, HB. }
  2: { unfold gint. rewrite dec_int_enc_int. unfold int32_ok in Hst. rewrite Hst. reflexivity. }
  cbn [obind fst snd]. unfold TL at 1. rewrite resp_tail_head.
  rewrite xfield_resp_mech; [| destruct mech; auto | lia | reflexivity | apply tlv_nonempty |].
  2: { rewrite <- resp_tail_head. eapply zlen_lt_app_r, HB. }
  cbn [obind fst snd]. rewrite <- resp_tail_head.
  rewrite (gfields_tail _ resp_tail (resp_tail_vals token mic));
    [reflexivity | reflexivity | destruct mic; reflexivity | eapply fits_app_r, fits_app_r, HfB].
Qed.

Lemma unmarshal_neg_token_tlv id body rest : id mod 32 <> 31 -> zlen body < 2 ^ 31 ->
  unmarshal_neg_token (tlv id body ++ rest) =
  if id mod 32 =? 0 then neg_init_dec body else if id mod 32 =? 1 then neg_resp_dec body else None.
Proof.
  intros Hid Hl. pose proof (tlv_app_nonempty id body rest) as Hne.
  destruct (tlv id body ++ rest) as [|x l] eqn:E; [contradiction|].
  cbn [unmarshal_neg_token]. rewrite <- E, ghdr_tlv by assumption.
  unfold hdr_id. cbn [h_len h_tag]. rewrite splitz_app. reflexivity.
Qed.

Lemma gss_frame_small mech inner b K : gss_frame mech inner = Some b -> zlen b < K -> zlen inner < K.
Proof.
  unfold gss_frame. destruct (enc_oid mech) as [o|]; [|discriminate]. intros H. apply some_inj in H. subst b.
  intros Hl. eapply zlen_lt_app_r, zlen_lt_tlv, Hl.
Qed.

Lemma krb5_wire_small tok_id wire mt K :
  gss_frame rfc_oid_krb5 (krb5_inner tok_id wire) = Some mt -> zlen mt < K -> zlen wire < K.
Proof. intros HF Hl. eapply zlen_lt_app_r, gss_frame_small; eassumption. Qed.

Lemma choice_encode_inv n t v b : choice_encode n t v = Some b ->
  tag_ok n = true /\ wf_val t v = true /\ b = tlv (ident 2 true n) (enc t v).
Proof.
  unfold choice_encode. destruct (tag_ok n); [|discriminate]. destruct (encode t v) as [e|] eqn:E; [|discriminate].
  apply encode_some in E. destruct E as [Hw ->]. intros H. apply some_inj in H. auto.
Qed.

(* a token in the GSS-API framing does not start with 0xa1: SPNEGOToken.Unmarshal reads the mechanism OID *)
Lemma spnego_unmarshal_framed mech inner tok rest : gss_frame mech inner = Some tok ->
  spnego_unmarshal (tok ++ rest) =
  match gss_oid (tok ++ rest) with
  | Some (o, r) => if oid_eqb o rfc_oid_spnego then unmarshal_neg_token r else None
  | None => None
  end.
Proof.
  unfold gss_frame. destruct (enc_oid mech); [|discriminate]. intros H. apply some_inj in H. subst tok. reflexivity.
Qed.

(* a NegTokenInit in the GSS-API framing (SPNEGOToken.Marshal, init), anything after it *)
Theorem spnego_unmarshal_init mechs flags mt mic inner tok rest :
  choice_encode 0 rfc_NegTokenInit (init_value mechs flags mt mic) = Some inner ->
  gss_frame rfc_oid_spnego inner = Some tok ->
  forallb oid_small mechs = true -> flags_ok flags = true -> zlen tok < 2 ^ 31 ->
  spnego_unmarshal (tok ++ rest) = Some (RInit mechs (Some mt)).
Proof.
  intros HC HF Hsm Hfl Hl. apply choice_encode_inv in HC. destruct HC as (_ & Hwf & ->).
  pose proof (zlen_lt_tlv _ _ _ (gss_frame_small _ _ _ _ HF Hl)) as He.
  rewrite (spnego_unmarshal_framed _ _ _ rest HF), (gss_oid_frame _ _ _ rest HF) by (auto; reflexivity).
  rewrite oid_eqb_refl, unmarshal_neg_token_tlv by (try exact He; cbv; congruence).
  change (ident 2 true 0 mod 32 =? 0) with true. cbn iota.
  rewrite <- (app_nil_r (enc _ _)). apply neg_init_dec_enc; auto.
Qed.

(* a bare NegTokenResp (SPNEGOToken.Marshal, resp), anything after it *)
Theorem spnego_unmarshal_resp state mech mt mic tok rest :
  choice_encode 1 rfc_NegTokenResp (resp_value state mech mt mic) = Some tok ->
  int32_ok state = true -> (match mech with Some m => oid_small m = true | None => True end) -> zlen tok < 2 ^ 31 ->
  spnego_unmarshal (tok ++ rest) = Some (RResp mech (Some mt)).
Proof.
  intros HC Hst Hsm Hl. apply choice_encode_inv in HC. destruct HC as (_ & Hwf & ->).
  pose proof (zlen_tlv (ident 2 true 1) (enc rfc_NegTokenResp (resp_value state mech mt mic))) as He.
  assert (G : forall b, spnego_unmarshal (tlv (ident 2 true 1) b ++ rest) = unmarshal_neg_token (tlv (ident 2 true 1) b ++ rest))
    by reflexivity.
  rewrite G, unmarshal_neg_token_tlv by (try lia; cbv; congruence).
  change (ident 2 true 1 mod 32 =? 0) with false. change (ident 2 true 1 mod 32 =? 1) with true. cbn iota.
  rewrite <- (app_nil_r (enc _ _)). apply neg_resp_dec_enc; auto. lia.
Qed.

(* a KRB5 mechanism token carrying the DER of a well-formed AP-REQ (KRB5Token.Marshal), anything after it *)
Theorem krb5_unmarshal_apreq tk aet ac wire mt rest :
  wf_apreq tk aet ac = true -> encode rfc_APReq (inject_apreq tk aet ac) = Some wire ->
  gss_frame rfc_oid_krb5 (krb5_inner rfc_tok_id_ap_req wire) = Some mt -> zlen mt < 2 ^ 31 ->
  krb5_unmarshal (mt ++ rest) = Some (KAPReq (wire ++ rest)).
Proof.
  intros Hwf He HF Hl. pose proof (krb5_wire_small _ _ _ _ HF Hl) as Hw.
  unfold krb5_unmarshal. rewrite (gss_oid_frame _ _ _ rest HF) by (auto; reflexivity).
  rewrite oid_eqb_refl. unfold krb5_inner, rfc_tok_id_ap_req. cbn [app Z.eqb Pos.eqb andb].
  rewrite (parse_apreq_encode tk aet ac wire rest Hwf He Hw). reflexivity.
Qed.

(* ... and such a token is not an SPNEGO token (the wrapper then tries it as a raw KRB5 token) *)
Theorem krb5_token_not_spnego inner mt rest :
  gss_frame rfc_oid_krb5 inner = Some mt -> zlen mt < 2 ^ 31 -> spnego_unmarshal (mt ++ rest) = None.
Proof.
  intros HF Hl. rewrite (spnego_unmarshal_framed _ _ _ rest HF), (gss_oid_frame _ _ _ rest HF) by (auto; reflexivity).
  reflexivity.
Qed.

Definition accepted (o : outcome) : option identity := match o with Accept id => Some id | _ => None end.

(* wire is the RFC 4120 DER of a well-formed AP-REQ whose two encrypted parts, when they decrypt, decode to et and au
   (the hypotheses of APReqBytesProofs.verify_apreq_bytes_refines; ex_sealed_apreq shows they are satisfiable) *)
Definition sealed_apreq (st : settings) (kt : list entry) (tk : ticket) (aet : Z) (ac wire : bytes)
           (et : enc_ticket) (au : authenticator) : Prop :=
  wf_apreq tk aet ac = true /\ encode rfc_APReq (inject_apreq tk aet ac) = Some wire /\
  (forall kv ktype kvno pt,
     get_key kt (match st_override st with Some o => o | None => tk_sname tk end)
             (tk_realm tk) (tk_kvno tk) (tk_etype tk) = Ok (kv, ktype, kvno) ->
     decrypt ktype kv 2 (tk_cipher tk) = Ok pt -> dec_ticket_der pt = Some et) /\
  (forall apt, decrypt (et_keytype et) (et_key et) (auth_usage (tk_sname tk)) ac = Ok apt -> dec_auth_der apt = Some au).

(* the verdict of the sealed-content model of C01 (model/APReq.v) *)
Definition sealed_verdict st kt t rc tk aet ac et au : option identity :=
  accepted (fst (verify_apreq (fun _ => Some et) (fun _ => Some au) st kt t rc tk aet ac)).

Lemma mech_of_bytes_apreq st kt t rc tk aet ac wire et au mt rest :
  sealed_apreq st kt tk aet ac wire et au ->
  gss_frame rfc_oid_krb5 (krb5_inner rfc_tok_id_ap_req wire) = Some mt -> zlen mt < 2 ^ 31 ->
  mech_of_bytes st kt t rc (mt ++ rest) = MTAPReq (sealed_verdict st kt t rc tk aet ac et au).
Proof.
  intros (Hwf & He & Ht & Ha) HF Hl. unfold mech_of_bytes.
  rewrite (krb5_unmarshal_apreq tk aet ac wire mt rest Hwf He HF Hl).
  unfold apreq_verdict_bytes, sealed_verdict.
  rewrite (verify_apreq_bytes_refines st kt t rc tk aet ac wire rest et au Hwf He (krb5_wire_small _ _ _ _ HF Hl) Ht Ha).
  reflexivity.
Qed.

Theorem header_of_bytes_b64 st kt t rc b : wf_bytes b ->
  header_of_bytes st kt t rc (negotiate ++ 32 :: b64_encode b) =
  match token_of_bytes st kt t rc b with Some tk => HToken tk | None => HUndecodable end.
Proof.
  intros Hb. unfold header_of_bytes. change (split_space (negotiate ++ 32 :: b64_encode b)) with (Some (negotiate, b64_encode b)).
  cbv iota beta. rewrite beq_bytes_refl, b64_decode_encode by exact Hb. reflexivity.
Qed.

Lemma init_tail_head flags token mic :
  enc_fields enc (erase_fields init_tail) (init_tail_vals flags token mic) =
  (match j_flags flags with Some v => tlv (ident 2 true 1) (enc TBits v) | None => [] end)
  ++ tlv (ident 2 true 2) (tlv 4 token) ++ enc_fields enc [opt 3 TOctets] [option_map VBytes mic].
Proof. reflexivity. Qed.

(* a mechanism token is smaller than the negotiation token that carries it *)
Lemma init_token_small mechs flags mt mic inner tok K :
  choice_encode 0 rfc_NegTokenInit (init_value mechs flags mt mic) = Some inner ->
  gss_frame rfc_oid_spnego inner = Some tok -> zlen tok < K -> zlen mt < K.
Proof.
  intros HC HF Hl. apply (gss_frame_small _ _ _ _ HF) in Hl. apply choice_encode_inv in HC. destruct HC as (_ & _ & ->).
  rewrite enc_init_value, init_tail_head in Hl.
  eapply zlen_lt_tlv, zlen_lt_tlv, zlen_lt_app_l, zlen_lt_app_r, zlen_lt_app_r, zlen_lt_tlv, zlen_lt_tlv, Hl.
Qed.

Lemma resp_token_small state mech mt mic tok K :
  choice_encode 1 rfc_NegTokenResp (resp_value state mech mt mic) = Some tok -> zlen tok < K -> zlen mt < K.
Proof.
  intros HC Hl. apply choice_encode_inv in HC. destruct HC as (_ & _ & ->). rewrite enc_resp_value, resp_tail_head in Hl.
  eapply zlen_lt_tlv, zlen_lt_tlv, zlen_lt_app_l, zlen_lt_app_r, zlen_lt_app_r, zlen_lt_tlv, zlen_lt_tlv, Hl.
Qed.

Lemma mech_of_bytes_apreq0 st kt t rc tk aet ac wire et au mt :
  sealed_apreq st kt tk aet ac wire et au ->
  gss_frame rfc_oid_krb5 (krb5_inner rfc_tok_id_ap_req wire) = Some mt -> zlen mt < 2 ^ 31 ->
  mech_of_bytes st kt t rc mt = MTAPReq (sealed_verdict st kt t rc tk aet ac et au).
Proof. intros HS HM Hm. rewrite <- (app_nil_r mt) at 1. apply (mech_of_bytes_apreq st kt t rc tk aet ac wire); assumption. Qed.

Theorem serve_bytes_refines_init s st kt t rc tk aet ac wire et au mt mechs flags mic inner tok rest :
  sealed_apreq st kt tk aet ac wire et au ->
  gss_frame rfc_oid_krb5 (krb5_inner rfc_tok_id_ap_req wire) = Some mt ->
  choice_encode 0 rfc_NegTokenInit (init_value mechs flags mt mic) = Some inner ->
  gss_frame rfc_oid_spnego inner = Some tok ->
  forallb oid_small mechs = true -> flags_ok flags = true -> zlen tok < 2 ^ 31 -> wf_bytes (tok ++ rest) ->
  serve_bytes st kt t rc s (negotiate ++ 32 :: b64_encode (tok ++ rest)) =
  serve s (HToken (NInit (map classify_oid mechs) (Some (MTAPReq (sealed_verdict st kt t rc tk aet ac et au))))).
Proof.
  intros HS HM HC HF Hsm Hfl Hl Hwb. pose proof (init_token_small _ _ _ _ _ _ _ HC HF Hl) as Hm.
  unfold serve_bytes. rewrite header_of_bytes_b64 by exact Hwb.
  unfold token_of_bytes. rewrite (spnego_unmarshal_init mechs flags mt mic inner tok rest HC HF Hsm Hfl Hl).
  cbn [neg_of_raw option_map]. rewrite (mech_of_bytes_apreq0 st kt t rc tk aet ac wire et au mt HS HM Hm). reflexivity.
Qed.

Theorem serve_bytes_refines_resp s st kt t rc tk aet ac wire et au mt state mech mic tok rest :
  sealed_apreq st kt tk aet ac wire et au ->
  gss_frame rfc_oid_krb5 (krb5_inner rfc_tok_id_ap_req wire) = Some mt ->
  choice_encode 1 rfc_NegTokenResp (resp_value state mech mt mic) = Some tok ->
  int32_ok state = true -> (match mech with Some m => oid_small m = true | None => True end) ->
  zlen tok < 2 ^ 31 -> wf_bytes (tok ++ rest) ->
  serve_bytes st kt t rc s (negotiate ++ 32 :: b64_encode (tok ++ rest)) =
  serve s (HToken (NResp (match mech with Some o => classify_oid o | None => OOther end)
                         (Some (MTAPReq (sealed_verdict st kt t rc tk aet ac et au))))).
Proof.
  intros HS HM HC Hst Hsm Hl Hwb. pose proof (resp_token_small _ _ _ _ _ _ HC Hl) as Hm.
  unfold serve_bytes. rewrite header_of_bytes_b64 by exact Hwb.
  unfold token_of_bytes. rewrite (spnego_unmarshal_resp state mech mt mic tok rest HC Hst Hsm Hl).
  cbn [neg_of_raw option_map]. rewrite (mech_of_bytes_apreq0 st kt t rc tk aet ac wire et au mt HS HM Hm). reflexivity.
Qed.

(* a raw KRB5 mechanism token (no SPNEGO layer): the wrapper turns it into NegTokenInit{[KRB5], token} *)
Theorem serve_bytes_refines_raw s st kt t rc tk aet ac wire et au mt rest :
  sealed_apreq st kt tk aet ac wire et au ->
  gss_frame rfc_oid_krb5 (krb5_inner rfc_tok_id_ap_req wire) = Some mt ->
  zlen mt < 2 ^ 31 -> wf_bytes (mt ++ rest) ->
  serve_bytes st kt t rc s (negotiate ++ 32 :: b64_encode (mt ++ rest)) =
  serve s (HToken (NInit [OKrb5] (Some (MTAPReq (sealed_verdict st kt t rc tk aet ac et au))))).
Proof.
  intros HS HM Hl Hwb. unfold serve_bytes. rewrite header_of_bytes_b64 by exact Hwb.
  unfold token_of_bytes. rewrite (krb5_token_not_spnego _ mt rest HM Hl).
  rewrite (mech_of_bytes_apreq st kt t rc tk aet ac wire et au mt rest HS HM Hl).
  destruct HS as (Hwf & He & _). rewrite (krb5_unmarshal_apreq tk aet ac wire mt rest Hwf He HM Hl). reflexivity.
Qed.

(* the verification API on token octets: SPNEGOToken.Unmarshal + AcceptSecContext *)
Theorem accept_bytes_refines_init st kt t rc tk aet ac wire et au mt mechs flags mic inner tok rest :
  sealed_apreq st kt tk aet ac wire et au ->
  gss_frame rfc_oid_krb5 (krb5_inner rfc_tok_id_ap_req wire) = Some mt ->
  choice_encode 0 rfc_NegTokenInit (init_value mechs flags mt mic) = Some inner ->
  gss_frame rfc_oid_spnego inner = Some tok ->
  forallb oid_small mechs = true -> flags_ok flags = true -> zlen tok < 2 ^ 31 ->
  accept_bytes st kt t rc (tok ++ rest) =
  Some (accept_sec_context (NInit (map classify_oid mechs) (Some (MTAPReq (sealed_verdict st kt t rc tk aet ac et au))))).
Proof.
  intros HS HM HC HF Hsm Hfl Hl. pose proof (init_token_small _ _ _ _ _ _ _ HC HF Hl) as Hm.
  unfold accept_bytes. rewrite (spnego_unmarshal_init mechs flags mt mic inner tok rest HC HF Hsm Hfl Hl).
  cbn [neg_of_raw option_map]. rewrite (mech_of_bytes_apreq0 st kt t rc tk aet ac wire et au mt HS HM Hm). reflexivity.
Qed.

(* the AP-REQ octets a mechanism token carries: KRB5Token.Unmarshal found tok-id 01 00 and APReq.Unmarshal accepted *)
Definition wire_of_mech (mb : bytes) : option bytes :=
  match krb5_unmarshal mb with Some (KAPReq w) => Some w | _ => None end.

Lemma mech_of_bytes_accepted st kt t rc mb id :
  mech_of_bytes st kt t rc mb = MTAPReq (Some id) ->
  exists wire, wire_of_mech mb = Some wire /\ fst (verify_apreq_bytes st kt t rc wire) = Accept id.
Proof.
  unfold mech_of_bytes, wire_of_mech, apreq_verdict_bytes.
  destruct (krb5_unmarshal mb) as [[w| | |]|]; try discriminate.
  destruct (fst (verify_apreq_bytes st kt t rc w)) eqn:E; try discriminate. intros H. injection H as ->. eauto.
Qed.

Definition raw_token (r : neg_raw) : option bytes := match r with RInit _ tok | RResp _ tok => tok end.

Lemma carried_neg_of_raw st kt t rc r :
  carried (neg_of_raw st kt t rc r) = option_map (mech_of_bytes st kt t rc) (raw_token r).
Proof. destruct r; reflexivity. Qed.

Lemma carried_wire_eq b :
  carried_wire b =
  match spnego_unmarshal b with
  | Some r => match raw_token r with Some mb => wire_of_mech mb | None => None end
  | None => wire_of_mech b
  end.
Proof. unfold carried_wire. destruct (spnego_unmarshal b) as [[ms [mb|]|m [mb|]]|]; reflexivity. Qed.

Lemma token_of_bytes_carried st kt t rc b tk id :
  token_of_bytes st kt t rc b = Some tk -> carried tk = Some (MTAPReq (Some id)) ->
  exists wire, carried_wire b = Some wire /\ fst (verify_apreq_bytes st kt t rc wire) = Accept id.
Proof.
  unfold token_of_bytes. rewrite carried_wire_eq. destruct (spnego_unmarshal b) as [r|].
  - intros H. injection H as <-. rewrite carried_neg_of_raw. destruct (raw_token r) as [mb|]; [|discriminate].
    intros H. injection H as H. exact (mech_of_bytes_accepted _ _ _ _ _ _ H).
  - destruct (krb5_unmarshal b) as [k|]; [|discriminate]. intros H. injection H as <-. cbn [carried].
    intros H. injection H as H. exact (mech_of_bytes_accepted _ _ _ _ _ _ H).
Qed.

Lemma header_of_bytes_token st kt t rc hv tk :
  header_of_bytes st kt t rc hv = HToken tk ->
  exists value b, split_space hv = Some (negotiate, value) /\ b64_decode value = Some b /\
                  token_of_bytes st kt t rc b = Some tk.
Proof.
  unfold header_of_bytes. destruct (split_space hv) as [[scheme value]|]; [|discriminate].
  destruct (beq_bytes scheme negotiate) eqn:Es; [|discriminate]. apply beq_bytes_eq in Es. subst scheme.
  destruct (b64_decode value) as [b|] eqn:Eb; [|discriminate].
  destruct (token_of_bytes st kt t rc b) as [tk'|] eqn:Et; [|discriminate].
  intros H. injection H as ->. exists value, b. auto.
Qed.

(* C03 from the header octets: the handler runs with identity id only under an authenticated session of id, or when the
   value is "Negotiate" ' ' base64(tok) and tok carries (as SPNEGO mech token, or raw) a KRB5 token with tok-id 01 00
   whose AP-REQ octets verify_apreq_bytes accepts with that identity *)
Theorem handler_only_if_valid_apreq s st kt t rc hv id :
  r_inner (serve_bytes st kt t rc s hv) = Some id ->
  s = Session id true \/
  exists value tok wire,
    split_space hv = Some (negotiate, value) /\ b64_decode value = Some tok /\
    carried_wire tok = Some wire /\ fst (verify_apreq_bytes st kt t rc wire) = Accept id.
Proof.
  intros H. unfold serve_bytes in H. apply handler_only_if_authenticated in H.
  destruct H as [H|(tk & Hh & Hc)]; [left; exact H|]. right.
  apply header_of_bytes_token in Hh. destruct Hh as (value & b & Hs & Hb & Ht).
  destruct (token_of_bytes_carried _ _ _ _ _ _ _ Ht Hc) as (w & Hw & Hv).
  exists value, b, w. auto.
Qed.

Theorem carried_wire_spec tok wire : carried_wire tok = Some wire ->
  exists mb, krb5_unmarshal mb = Some (KAPReq wire) /\
             ((exists ms, spnego_unmarshal tok = Some (RInit ms (Some mb))) \/
              (exists m, spnego_unmarshal tok = Some (RResp m (Some mb))) \/
              (spnego_unmarshal tok = None /\ mb = tok)).
Proof.
  assert (G : forall mb, wire_of_mech mb = Some wire -> krb5_unmarshal mb = Some (KAPReq wire)).
  { unfold wire_of_mech. intros mb. destruct (krb5_unmarshal mb) as [[w| | |]|]; try discriminate. congruence. }
  rewrite carried_wire_eq. destruct (spnego_unmarshal tok) as [[ms [mb|]|m [mb|]]|]; cbn [raw_token]; try discriminate;
    intros H; apply G in H; eauto 6.
Qed.

Theorem krb5_unmarshal_apreq_inv mb wire : krb5_unmarshal mb = Some (KAPReq wire) ->
  gss_oid mb = Some (rfc_oid_krb5, 1 :: 0 :: wire) /\ parse_apreq wire <> None.
Proof.
  unfold krb5_unmarshal. destruct (gss_oid mb) as [[o r]|]; [|discriminate].
  destruct (oid_eqb o rfc_oid_krb5) eqn:Eo; [|discriminate]. apply oid_eqb_eq in Eo. subst o.
  destruct r as [|t0 [|t1 msg]]; try discriminate.
  destruct ((t0 =? 1) && (t1 =? 0)) eqn:E1.
  - apply andb_true_iff in E1. destruct E1 as [E1 E2]. assert (t0 = 1) by lia. assert (t1 = 0) by lia. subst.
    destruct (parse_apreq msg) eqn:Ep; [|discriminate]. intros H. injection H as <-. rewrite Ep. split; [reflexivity | discriminate].
  - destruct ((t0 =? 2) && (t1 =? 0)); [destruct (krb_msg_ok 15 go_APRep msg); discriminate|].
    destruct ((t0 =? 3) && (t1 =? 0)); [destruct (krb_msg_ok 30 go_KRBError msg); discriminate | discriminate].
Qed.

(* ... and then the conjunction of RFC 4120 3.2.3 (C01) holds of the carried AP-REQ *)
Corollary handler_only_if_rfc_valid s st kt t rc hv id :
  r_inner (serve_bytes st kt t rc s hv) = Some id ->
  s = Session id true \/
  exists value tok wire tk aet ac rc',
    split_space hv = Some (negotiate, value) /\ b64_decode value = Some tok /\ carried_wire tok = Some wire /\
    parse_apreq wire = Some (tk, aet, ac) /\ rfc_valid dec_ticket_der dec_auth_der st kt t rc tk ac id rc'.
Proof.
  intros H. apply handler_only_if_valid_apreq in H. destruct H as [H|(value & tok & wire & Hs & Hb & Hw & Hv)]; [left; exact H|].
  right. destruct (verify_apreq_bytes st kt t rc wire) as [o rc'] eqn:E. cbn [fst] in Hv. subst o.
  apply verify_apreq_bytes_accept_iff in E. destruct E as (tk & aet & ac & Hp & Hr).
  exists value, tok, wire, tk, aet, ac, rc'. auto.
Qed.

Definition no_session (s : session) : Prop := forall id, s <> Session id true.

Theorem header_not_token st kt t rc hv :
  (forall tk, header_of_bytes st kt t rc hv <> HToken tk) <->
  (forall value, split_space hv = Some (negotiate, value) ->
     forall b, b64_decode value = Some b -> spnego_unmarshal b = None /\ krb5_unmarshal b = None).
Proof.
  split.
  - intros H value Hs b Hb. unfold header_of_bytes in H. rewrite Hs, beq_bytes_refl, Hb in H.
    unfold token_of_bytes in H. destruct (spnego_unmarshal b) as [r|]; [exfalso; eapply H; reflexivity|].
    destruct (krb5_unmarshal b) as [k|]; [exfalso; eapply H; reflexivity|]. auto.
  - intros H tk Hh. apply header_of_bytes_token in Hh. destruct Hh as (value & b & Hs & Hb & Ht).
    destruct (H value Hs b Hb) as [H1 H2]. unfold token_of_bytes in Ht. rewrite H1, H2 in Ht. discriminate.
Qed.

(* no scheme "Negotiate", malformed base64, octets that are neither an SPNEGO token nor a raw KRB5 token: 401 with a
   challenge (bare "Negotiate", or the accept-incomplete NegTokenResp) *)
Theorem undecodable_401 s st kt t rc hv :
  no_session s -> (forall tk, header_of_bytes st kt t rc hv <> HToken tk) ->
  r_status (serve_bytes st kt t rc s hv) = 401 /\ r_inner (serve_bytes st kt t rc s hv) = None /\
  (r_challenge (serve_bytes st kt t rc s hv) = CNegotiate \/ r_challenge (serve_bytes st kt t rc s hv) = CIncomplete).
Proof.
  intros Hs Hh. unfold serve_bytes, serve.
  destruct (header_of_bytes st kt t rc hv) as [| | |tk]; [| | |exfalso; eapply Hh; reflexivity];
    destruct s as [|nf|sid [|]]; try (exfalso; eapply Hs; reflexivity); cbn; auto.
Qed.

Theorem serve_bytes_refused s st kt t rc hv :
  r_inner (serve_bytes st kt t rc s hv) = None ->
  (r_status (serve_bytes st kt t rc s hv) = 401 /\ r_challenge (serve_bytes st kt t rc s hv) <> CNone /\
   r_challenge (serve_bytes st kt t rc s hv) <> CAcceptCompleted) \/
  (r_status (serve_bytes st kt t rc s hv) = 500 /\ s = NoSession true).
Proof.
  intros H. unfold serve_bytes in *. destruct (otherwise_refused _ _ H) as [H1|(H1 & H2 & _)]; [left; exact H1 | right; auto].
Qed.

Theorem serve_bytes_served_200 s st kt t rc hv id :
  r_inner (serve_bytes st kt t rc s hv) = Some id -> r_status (serve_bytes st kt t rc s hv) = 200.
Proof. apply served_status. Qed.

(* service.VerifyAPREQ never panics on the carried AP-REQ: the jv entry points never answer "panic" *)
Theorem no_crash st kt t rc b : crashes st kt t rc b = false.
Proof.
  unfold crashes. destruct (carried_wire b) as [w|]; [|reflexivity].
  pose proof (verify_apreq_bytes_total st kt t rc w) as H.
  destruct (fst (verify_apreq_bytes st kt t rc w)); try reflexivity. contradiction.
Qed.

Theorem spnego_serve_bytes_never_panics j : spnego_serve_bytes_j j <> jpanic.
Proof.
  unfold spnego_serve_bytes_j.
  assert (G : forall s st kt t rc hv,
    match un_session s, un_settings st, map_opt un_entry kt, un_rc rc with
    | Some s', Some st', Some kt', Some rc' =>
      if crashes st' kt' t rc' (header_token hv) then jpanic else
      let r := serve_bytes st' kt' t rc' s' hv in
      jok [JI (r_status r); JI (challenge_code (r_challenge r)); j_id (r_inner r)]
    | _, _, _, _ => jbad
    end <> jpanic).
  { intros. destruct (un_session s); [|discriminate]. destruct (un_settings st); [|discriminate].
    destruct (map_opt un_entry kt); [|discriminate]. destruct (un_rc rc); [|discriminate].
    rewrite no_crash. discriminate. }
  destruct j as [z|b|l]; try discriminate.
  destruct l as [|a [|b [|c [|d [|e [|f [|g l]]]]]]].
  all: repeat first [discriminate | apply G
                    | match goal with |- context [match ?x with _ => _ end] => is_var x; destruct x end].
Qed.

Theorem spnego_accept_bytes_never_panics j : spnego_accept_bytes_j j <> jpanic.
Proof.
  unfold spnego_accept_bytes_j.
  destruct j as [z|b|l]; try discriminate.
  assert (G : forall st kt t rc b,
    match un_settings st, map_opt un_entry kt, un_rc rc with
    | Some st', Some kt', Some rc' =>
      match accept_bytes st' kt' t rc' b with
      | None => jerr
      | Some (o, s) =>
        if crashes st' kt' t rc' b then jpanic else
        jok [jbool (match o with Some _ => true | None => false end); j_id o;
             jbool (match s with SComplete | SContinueNeeded => true | _ => false end)]
      end
    | _, _, _ => jbad
    end <> jpanic).
  { intros. destruct (un_settings st); [|discriminate]. destruct (map_opt un_entry kt); [|discriminate].
    destruct (un_rc rc); [|discriminate]. destruct (accept_bytes _ _ _ _ _) as [[o s0]|]; [|discriminate].
    rewrite no_crash. discriminate. }
  destruct l as [|a [|b [|c [|d [|e [|f l]]]]]].
  all: repeat first [discriminate | apply G
                    | match goal with |- context [match ?x with _ => _ end] => is_var x; destruct x end].
Qed.

(* examples: the premises are satisfiable, on the really sealed AP-REQ of APReqBytesProofs (rc4-hmac) *)
Definition ex_mt : bytes := opt_get [] (gss_frame rfc_oid_krb5 (krb5_inner rfc_tok_id_ap_req ex_wire)).
Definition ex_mechs : list (list Z) := [oid_ms_krb5; rfc_oid_krb5].
Definition ex_flags : option (Z * bytes) := Some (1, [64]).
Definition ex_inner : bytes := opt_get [] (choice_encode 0 rfc_NegTokenInit (init_value ex_mechs ex_flags ex_mt None)).
Definition ex_tok : bytes := opt_get [] (gss_frame rfc_oid_spnego ex_inner).
Definition ex_resp_tok : bytes :=
  opt_get [] (choice_encode 1 rfc_NegTokenResp (resp_value 1 (Some rfc_oid_krb5) ex_mt (Some [1; 2]))).
Definition ex_hdr (tok : bytes) : bytes := negotiate ++ 32 :: b64_encode tok.
Definition ex_id : identity := mkIdentity ex_user ex_realm [ex_user] 1700036000.

Example ex_wellformed_apreq :
  wf_apreq ex_tk 23 ex_ac = true /\ dec_ticket_der ex_pt = Some ex_et /\ dec_auth_der ex_apt = Some ex_au.
Proof. vm_compute. auto. Qed.

Example ex_sealed_apreq : sealed_apreq ex_st ex_kt ex_tk 23 ex_ac ex_wire ex_et ex_au.
Proof.
  destruct ex_opens as [O1 O2]. destruct ex_encodings as (_ & _ & E3 & _). destruct ex_wellformed_apreq as (W & D1 & D2).
  split; [exact W|]. split; [exact E3|]. split.
  - intros kv ktype kvno pt Hk Hd. rewrite (O1 kv ktype kvno pt Hk Hd). exact D1.
  - intros apt Ha. rewrite (O2 apt Ha). exact D2.
Qed.

Example ex_tokens :
  gss_frame rfc_oid_krb5 (krb5_inner rfc_tok_id_ap_req ex_wire) = Some ex_mt /\
  choice_encode 0 rfc_NegTokenInit (init_value ex_mechs ex_flags ex_mt None) = Some ex_inner /\
  gss_frame rfc_oid_spnego ex_inner = Some ex_tok /\
  choice_encode 1 rfc_NegTokenResp (resp_value 1 (Some rfc_oid_krb5) ex_mt (Some [1; 2])) = Some ex_resp_tok /\
  forallb oid_small ex_mechs = true /\ flags_ok ex_flags = true /\ int32_ok 1 = true /\
  zlen ex_mt = 420 /\ zlen ex_tok = 480 /\ zlen ex_resp_tok = 460 /\
  wf_bytesb (ex_tok ++ [222; 173]) = true /\ wf_bytesb ex_resp_tok = true /\ wf_bytesb (ex_mt ++ [0]) = true.
Proof. vm_compute. repeat split; reflexivity. Qed.

Example ex_unmarshal :
  spnego_unmarshal (ex_tok ++ [222; 173]) = Some (RInit ex_mechs (Some ex_mt)) /\
  spnego_unmarshal ex_resp_tok = Some (RResp (Some rfc_oid_krb5) (Some ex_mt)) /\
  spnego_unmarshal ex_mt = None /\ krb5_unmarshal ex_mt = Some (KAPReq ex_wire) /\
  spnego_unmarshal ex_inner = None /\ krb5_unmarshal ex_inner = None /\         (* a bare NegTokenInit is not accepted *)
  carried_wire ex_tok = Some ex_wire /\ carried_wire ex_resp_tok = Some ex_wire /\ carried_wire ex_mt = Some ex_wire.
Proof. vm_compute. repeat split; reflexivity. Qed.

(* served from the header octets, with the sealed identity, as the structure model says *)
Example ex_served :
  sealed_verdict ex_st ex_kt ex_now [] ex_tk 23 ex_ac ex_et ex_au = Some ex_id /\
  serve_bytes ex_st ex_kt ex_now [] NoManager (ex_hdr (ex_tok ++ [222; 173])) = mkResp 200 CAcceptCompleted (Some ex_id) /\
  serve NoManager (HToken (NInit (map classify_oid ex_mechs) (Some (MTAPReq (Some ex_id))))) = mkResp 200 CAcceptCompleted (Some ex_id) /\
  serve_bytes ex_st ex_kt ex_now [] NoManager (ex_hdr ex_resp_tok) = mkResp 200 CAcceptCompleted (Some ex_id) /\
  serve_bytes ex_st ex_kt ex_now [] NoManager (ex_hdr (ex_mt ++ [0])) = mkResp 200 CAcceptCompleted (Some ex_id) /\
  serve_bytes ex_st ex_kt ex_now [] (NoSession true) (ex_hdr ex_tok) = mkResp 500 CNone None /\
  accept_bytes ex_st ex_kt ex_now [] ex_tok = Some (Some ex_id, SComplete) /\
  fst (verify_apreq_bytes ex_st ex_kt ex_now [] ex_wire) = Accept ex_id.
Proof.
  destruct ex_tokens as (HM & HC & HF & HR & Hsm & Hfl & Hst & Lm & Lt & Lr & W1 & W2 & W3).
  apply wf_bytesb_iff in W1, W2, W3. pose proof ex_sealed_apreq as HS.
  assert (Lm' : zlen ex_mt < 2 ^ 31) by (rewrite Lm; reflexivity).
  assert (Lt' : zlen ex_tok < 2 ^ 31) by (rewrite Lt; reflexivity).
  assert (Lr' : zlen ex_resp_tok < 2 ^ 31) by (rewrite Lr; reflexivity).
  (* the sealed-content verdict, from the acceptance of the same request in APReqBytesProofs.ex_accepted *)
  assert (A : verify_apreq (fun _ => Some ex_et) (fun _ => Some ex_au) ex_st ex_kt ex_now [] ex_tk 23 ex_ac =
              (Accept ex_id, [mkAuth ex_user 1700000100123456 ex_sname])).
  { destruct ex_accepted as [A1 A2]. rewrite <- A2. exact A1. }
  assert (V : sealed_verdict ex_st ex_kt ex_now [] ex_tk 23 ex_ac ex_et ex_au = Some ex_id).
  { unfold sealed_verdict. rewrite A. reflexivity. }
  (* the refinement theorems on the example's data: every argument given, so that nothing is found by unification
     against the 400-octet constants *)
  pose proof (fun s r => serve_bytes_refines_init s ex_st ex_kt ex_now [] ex_tk 23 ex_ac ex_wire ex_et ex_au ex_mt ex_mechs
                           ex_flags None ex_inner ex_tok r HS HM HC HF Hsm Hfl Lt') as RI.
  pose proof (serve_bytes_refines_resp NoManager ex_st ex_kt ex_now [] ex_tk 23 ex_ac ex_wire ex_et ex_au ex_mt 1
                (Some rfc_oid_krb5) (Some [1; 2]) ex_resp_tok [] HS HM HR Hst eq_refl Lr') as RR.
  pose proof (serve_bytes_refines_raw NoManager ex_st ex_kt ex_now [] ex_tk 23 ex_ac ex_wire ex_et ex_au ex_mt [0]
                HS HM Lm' W3) as RW.
  pose proof (accept_bytes_refines_init ex_st ex_kt ex_now [] ex_tk 23 ex_ac ex_wire ex_et ex_au ex_mt ex_mechs
                ex_flags None ex_inner ex_tok [] HS HM HC HF Hsm Hfl Lt') as RA.
  rewrite app_nil_r in RR, RA. rewrite V in RI, RR, RW, RA. unfold ex_hdr.
  split; [exact V|]. split; [rewrite (RI NoManager [222; 173] W1); reflexivity|]. split; [reflexivity|].
  split; [rewrite (RR W2); reflexivity|]. split; [rewrite RW; reflexivity|].
  split. { rewrite <- (app_nil_r ex_tok) at 1. rewrite (RI (NoSession true) []); [reflexivity|].
           rewrite app_nil_r. exact (proj1 (proj1 (wf_bytes_app ex_tok [222; 173]) W1)). }
  split; [rewrite RA; reflexivity|].
  rewrite <- (app_nil_r ex_wire), (ex_refines ex_now [] []), A. reflexivity.
Qed.

(* refused: undecodable_401 in each of its three ways, and tokens that decode but carry no acceptable AP-REQ *)
Definition ex_aprep_mech : bytes := opt_get [] (gss_frame rfc_oid_krb5 (krb5_inner rfc_tok_id_ap_rep ex_wire)).
Definition ex_ms_mech : bytes := opt_get [] (gss_frame oid_ms_krb5 (krb5_inner rfc_tok_id_ap_req ex_wire)).
Definition ex_tok_of (mechs : list (list Z)) (mt : bytes) : bytes :=
  opt_get [] (gss_frame rfc_oid_spnego (opt_get [] (choice_encode 0 rfc_NegTokenInit (init_value mechs None mt None)))).

Example ex_refused :
  let sv := serve_bytes ex_st ex_kt ex_now [] NoManager in
  sv [] = mkResp 401 CNegotiate None /\
  sv (78 :: 69 :: 71 :: 79 :: 84 :: 73 :: 65 :: 84 :: 69 :: 32 :: b64_encode ex_tok) = mkResp 401 CNegotiate None /\   (* "NEGOTIATE" *)
  sv (negotiate ++ 32 :: 32 :: b64_encode ex_tok) = mkResp 401 CIncomplete None /\                                     (* two blanks *)
  sv (negotiate ++ 32 :: removelast (b64_encode ex_tok)) = mkResp 401 CIncomplete None /\                              (* padding missing *)
  sv (ex_hdr ex_inner) = mkResp 401 CIncomplete None /\                                                                 (* bare NegTokenInit *)
  sv (ex_hdr (firstn 400 ex_tok)) = mkResp 401 CIncomplete None /\                                                      (* truncated *)
  sv (ex_hdr (ex_tok_of [rfc_oid_krb5] ex_aprep_mech)) = mkResp 401 CReject None /\                                     (* tok-id 02 00 *)
  sv (ex_hdr (ex_tok_of [rfc_oid_krb5] ex_ms_mech)) = mkResp 401 CReject None /\                                        (* MS OID in the mech token *)
  sv (ex_hdr (ex_tok_of [[1; 3; 6; 1; 4; 1; 311; 2; 2; 10]; rfc_oid_krb5] ex_mt)) = mkResp 401 CReject None /\          (* NTLMSSP first *)
  sv (ex_hdr (ex_tok_of [] ex_mt)) = mkResp 401 CReject None /\                                                         (* empty mech list *)
  serve_bytes ex_st ex_kt (ex_now + 3600 * 1000000) [] NoManager (ex_hdr ex_tok) = mkResp 401 CReject None /\           (* clock skew *)
  serve_bytes ex_st ex_kt ex_now [mkAuth ex_user 1700000100123456 ex_sname] NoManager (ex_hdr ex_tok) = mkResp 401 CReject None. (* replay *)
Proof. vm_compute. repeat split; reflexivity. Qed.

Example ex_not_token :
  (forall tk, header_of_bytes ex_st ex_kt ex_now [] (ex_hdr ex_inner) <> HToken tk) /\ no_session NoManager /\
  no_session (NoSession false).
Proof. split; [|split]; [intros tk; vm_compute; discriminate | intros id; discriminate | intros id; discriminate]. Qed.
