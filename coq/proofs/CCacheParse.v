(* CCache.cc_unmarshal reads every file of the MIT credential-cache grammar (format versions 1 to 4) to
   exactly the cache that was written.

   The grammar `render` below is written from the MIT krb5 document "Credential cache file format"
   (doc/formats/ccache_file_format.rst), from knowledge of that document, and was cross-checked against
   the reader in v8/credentials/ccache.go; the independent Go writer of the harness (props/c15) follows
   the same text.

     file       ::= 0x05 version [header (version 4 only)] principal credential*          (to end of file)
     header     ::= length(16) { tag(16) length(16) value }*     (unknown tags are to be ignored by readers;
                                                                  tag 1 = KDC time offset, always 8 bytes)
     principal  ::= [name type(32), not in version 1] count(32) (version 1: counts the realm too)
                    realm(data) component(data)*
     data       ::= length(32) bytes
     credential ::= client server keyblock authtime(32) starttime(32) endtime(32) renew_till(32)
                    is_skey(8) ticket_flags(32) addresses authdata ticket(data) second_ticket(data)
     keyblock   ::= enctype(16) [repeated in version 3] data
     addresses  ::= count(32) { addrtype(16) data }*        authdata ::= count(32) { ad_type(16) data }*
   Integers are big endian in versions 3 and 4 and in native order (little endian here) in 1 and 2. *)
From Gokrb5.lib Require Import Bytes JV.
From Gokrb5.model Require Import Keytab CCache.
From Gokrb5.proofs Require Import BinReader.

Definition cput (w : nat) (le : bool) (z : Z) : bytes := if le then le_bytes w z else be_bytes w z.

Definition cc_le (v : Z) : bool := (v =? 1) || (v =? 2).

Definition r_data (le : bool) (d : bytes) : bytes := cput 4 le (zlen d) ++ d.

Definition r_princ (v : Z) (le : bool) (p : cprinc) : bytes :=
  (if v =? 1 then [] else cput 4 le (cp_ntype p))
  ++ cput 4 le (if v =? 1 then zlen (cp_comps p) + 1 else zlen (cp_comps p))
  ++ r_data le (cp_realm p)
  ++ concat (map (r_data le) (cp_comps p)).

Definition r_tagged (le : bool) (t : tagged) : bytes := cput 2 le (fst t) ++ r_data le (snd t).

Definition r_counted (le : bool) (l : list tagged) : bytes :=
  cput 4 le (zlen l) ++ concat (map (r_tagged le) l).

Definition r_cred (v : Z) (le : bool) (c : cred) : bytes :=
  r_princ v le (c_client c) ++ r_princ v le (c_server c)
  ++ cput 2 le (c_ktype c) ++ (if v =? 3 then cput 2 le (c_ktype c) else [])
  ++ r_data le (c_key c)
  ++ cput 4 le (c_auth c) ++ cput 4 le (c_start c) ++ cput 4 le (c_end c) ++ cput 4 le (c_renew c)
  ++ cput 1 le (if c_skey c then 1 else 0)
  ++ cput 4 le (c_flags c)
  ++ r_counted le (c_addrs c) ++ r_counted le (c_authdata c)
  ++ r_data le (c_ticket c) ++ r_data le (c_ticket2 c).

Definition r_hfield (f : hfield) : bytes :=
  cput 2 false (hf_tag f) ++ cput 2 false (zlen (hf_val f)) ++ hf_val f.

Definition r_hbody (fs : list hfield) : bytes := concat (map r_hfield fs).

Definition r_header (fs : list hfield) : bytes := cput 2 false (zlen (r_hbody fs)) ++ r_hbody fs.

Definition render (m : ccache) : bytes :=
  let v := cc_version m in
  [5; v]
  ++ (if v =? 4 then r_header (cc_hfields m) else [])
  ++ r_princ v (cc_le v) (cc_princ m)
  ++ concat (map (r_cred v (cc_le v)) (cc_creds m)).

(* well-formed = every field fits the file representation *)
Definition wf_data (d : bytes) : Prop := zlen d < 2 ^ 31.

Definition wf_princ (v : Z) (p : cprinc) : Prop :=
  (v = 1 -> cp_ntype p = 0) /\ - 2 ^ 31 <= cp_ntype p < 2 ^ 31 /\
  zlen (cp_comps p) + 1 < 2 ^ 31 /\ wf_data (cp_realm p) /\ Forall wf_data (cp_comps p).

Definition wf_tagged (t : tagged) : Prop := - 2 ^ 15 <= fst t < 2 ^ 15 /\ wf_data (snd t).

Definition wf_cred (v : Z) (c : cred) : Prop :=
  wf_princ v (c_client c) /\ wf_princ v (c_server c) /\
  - 2 ^ 15 <= c_ktype c < 2 ^ 15 /\ wf_data (c_key c) /\
  - 2 ^ 31 <= c_auth c < 2 ^ 31 /\ - 2 ^ 31 <= c_start c < 2 ^ 31 /\
  - 2 ^ 31 <= c_end c < 2 ^ 31 /\ - 2 ^ 31 <= c_renew c < 2 ^ 31 /\
  0 <= c_flags c < 2 ^ 32 /\
  zlen (c_addrs c) < 2 ^ 31 /\ Forall wf_tagged (c_addrs c) /\
  zlen (c_authdata c) < 2 ^ 31 /\ Forall wf_tagged (c_authdata c) /\
  wf_data (c_ticket c) /\ wf_data (c_ticket2 c).

Definition wf_hfield (f : hfield) : Prop :=
  0 <= hf_tag f < 2 ^ 16 /\ hf_len f = zlen (hf_val f) /\ zlen (hf_val f) < 2 ^ 16 /\
  (hf_tag f = 1 -> zlen (hf_val f) = 8).

Definition wf_cc (m : ccache) : Prop :=
  1 <= cc_version m <= 4 /\
  (cc_version m = 4 ->
     cc_hlen m = zlen (r_hbody (cc_hfields m)) /\ cc_hlen m < 2 ^ 16 /\ Forall wf_hfield (cc_hfields m)) /\
  (cc_version m <> 4 -> cc_hlen m = 0 /\ cc_hfields m = []) /\
  wf_princ (cc_version m) (cc_princ m) /\
  Forall (wf_cred (cc_version m)) (cc_creds m).

(* [cput] has the body of Keytab.put, so the BinReader lemmas about [put] rewrite terms written with [cput] *)
Lemma rd_data_render le d rest : wf_data d -> rd_data le (r_data le d ++ rest) = Ok (d, rest).
Proof.
  intros Hd. unfold rd_data, r_data. pose proof (zlen_nonneg d). unfold wf_data in Hd.
  rewrite <- app_assoc, rd_int4 by lia. cbn [bind]. apply rd_bytes_app.
Qed.

Lemma rd_many_render {A} (rd : bytes -> res (A * bytes)) (enc : A -> bytes) (P : A -> Prop) :
  (forall x rest, P x -> rd (enc x ++ rest) = Ok (x, rest)) ->
  forall xs fuel rest, Forall P xs -> (length xs <= fuel)%nat ->
  rd_many rd fuel (zlen xs) (concat (map enc xs) ++ rest) = Ok (xs, rest).
Proof.
  intros Hrd. induction xs as [|x xs IH]; intros fuel rest HP Hf.
  - destruct fuel; reflexivity.
  - inversion HP as [|? ? Hx Hxs]; subst.
    destruct fuel as [|fuel]; [cbn in Hf; lia|].
    cbn [rd_many map concat]. rewrite zlen_cons.
    pose proof (zlen_nonneg xs).
    destruct (Z.leb_spec (1 + zlen xs) 0); [lia|].
    rewrite <- app_assoc, Hrd by assumption. cbn [bind].
    replace (1 + zlen xs - 1) with (zlen xs) by lia.
    rewrite IH by (try assumption; cbn in Hf; lia). reflexivity.
Qed.

(* with the fuel the model gives: one unit per remaining byte *)
Lemma rd_many_render_all {A} (rd : bytes -> res (A * bytes)) (enc : A -> bytes) (P : A -> Prop) xs rest :
  (forall x rest, P x -> rd (enc x ++ rest) = Ok (x, rest)) -> (forall x, (1 <= length (enc x))%nat) ->
  Forall P xs ->
  rd_many rd (S (length (concat (map enc xs) ++ rest))) (zlen xs) (concat (map enc xs) ++ rest) = Ok (xs, rest).
Proof.
  intros Hrd Hlen HP. apply (rd_many_render rd enc P Hrd); [exact HP|].
  pose proof (concat_length_ge enc 1 xs Hlen). rewrite app_length. lia.
Qed.

Lemma r_data_length le d : (4 <= length (r_data le d))%nat.
Proof. unfold r_data. rewrite app_length, put_length. lia. Qed.

Lemma r_tagged_length le t : (6 <= length (r_tagged le t))%nat.
Proof. unfold r_tagged. rewrite app_length, put_length. pose proof (r_data_length le (snd t)). lia. Qed.

(* a field that is present in some versions only *)
Lemma rd_int4_if (c : bool) le z rest : (c = true -> z = 0) -> - 2 ^ 31 <= z < 2 ^ 31 ->
  (if c then Ok (0, (if c then [] else cput 4 le z) ++ rest)
   else rd_int 4 le ((if c then [] else cput 4 le z) ++ rest)) = Ok (z, rest).
Proof. intros H0 Hz. destruct c; [now rewrite H0|now apply rd_int4]. Qed.

Lemma rd_int2_if (c : bool) le z rest : - 2 ^ 15 <= z < 2 ^ 15 ->
  (if c then rd_int 2 le ((if c then cput 2 le z else []) ++ rest)
   else Ok (z, (if c then cput 2 le z else []) ++ rest)) = Ok (z, rest).
Proof. intros Hz. destruct c; [now apply rd_int2|reflexivity]. Qed.

Lemma rd_principal_render v le p rest :
  wf_princ v p -> rd_principal v le (r_princ v le p ++ rest) = Ok (p, rest).
Proof.
  intros (Hv1 & Hnt & Hnc & Hrealm & Hcomps). pose proof (zlen_nonneg (cp_comps p)).
  unfold rd_principal, r_princ. rewrite <- !app_assoc.
  rewrite rd_int4_if by (try assumption; intros E; apply Hv1, Z.eqb_eq, E). cbn [bind].
  rewrite rd_int4 by (destruct (v =? 1); lia). cbn [bind]. cbv zeta.
  replace (if v =? 1 then _ - 1 else _) with (zlen (cp_comps p)) by (destruct (v =? 1); lia).
  rewrite rd_data_render by assumption. cbn [bind].
  rewrite (rd_many_render_all (rd_data le) (r_data le) wf_data); try assumption.
  - destruct p; reflexivity.
  - intros x r Hx. now apply rd_data_render.
  - intros x. pose proof (r_data_length le x). lia.
Qed.

Lemma rd_tagged_render le t rest : wf_tagged t -> rd_tagged le (r_tagged le t ++ rest) = Ok (t, rest).
Proof.
  intros (Ht & Hd). unfold rd_tagged, r_tagged. rewrite <- app_assoc.
  rewrite rd_int2 by assumption. cbn [bind]. rewrite rd_data_render by assumption. cbn [bind].
  destruct t; reflexivity.
Qed.

Lemma rd_counted_render le l rest :
  zlen l < 2 ^ 31 -> Forall wf_tagged l -> rd_counted le (r_counted le l ++ rest) = Ok (l, rest).
Proof.
  intros Hl Hwf. pose proof (zlen_nonneg l).
  unfold rd_counted, r_counted. rewrite <- app_assoc, rd_int4 by lia. cbn [bind].
  pose proof (concat_length_ge (r_tagged le) 6 l (r_tagged_length le)) as Hlen.
  destruct (Z.ltb_spec (zlen l) 0); [lia|].
  destruct (Z.ltb_spec (zlen (concat (map (r_tagged le) l) ++ rest)) (zlen l)) as [Hbad|_].
  { rewrite zlen_app in Hbad. pose proof (zlen_nonneg rest). unfold zlen in *. lia. }
  cbn [orb]. apply (rd_many_render_all (rd_tagged le) (r_tagged le) wf_tagged); try assumption.
  - intros x r Hx. now apply rd_tagged_render.
  - intros x. pose proof (r_tagged_length le x). lia.
Qed.

Lemma rd_credential_render v le c rest :
  wf_cred v c -> rd_credential v le (r_cred v le c ++ rest) = Ok (c, rest).
Proof.
  intros (Hcl & Hsv & Hkt & Hkey & Ht1 & Ht2 & Ht3 & Ht4 & Hfl & Hna & Hwa & Hnd & Hwd & Htk & Htk2).
  unfold rd_credential, r_cred. rewrite <- !app_assoc.
  rewrite rd_principal_render by assumption. cbn [bind].
  rewrite rd_principal_render by assumption. cbn [bind].
  rewrite rd_int2 by assumption. cbn [bind].
  rewrite rd_int2_if by assumption. cbn [bind].
  rewrite rd_data_render by assumption. cbn [bind].
  rewrite rd_int4 by assumption. cbn [bind].
  rewrite rd_int4 by assumption. cbn [bind].
  rewrite rd_int4 by assumption. cbn [bind].
  rewrite rd_int4 by assumption. cbn [bind].
  rewrite rd_int1 by (destruct (c_skey c); lia). cbn [bind].
  rewrite rd_int4_eq. cbn [bind]. rewrite wrap_sint_mod by lia.
  rewrite rd_counted_render by assumption. cbn [bind].
  rewrite rd_counted_render by assumption. cbn [bind].
  rewrite rd_data_render by assumption. cbn [bind].
  rewrite rd_data_render by assumption. cbn [bind].
  destruct c as [cl sv kt key t1 t2 t3 t4 sk fl addrs ad tk tk2]; cbn.
  destruct sk; reflexivity.
Qed.

Lemma r_princ_length v le p : (8 <= length (r_princ v le p))%nat.
Proof.
  unfold r_princ. rewrite !app_length, put_length. pose proof (r_data_length le (cp_realm p)). lia.
Qed.

Lemma r_cred_length v le c : (1 <= length (r_cred v le c))%nat.
Proof. unfold r_cred. rewrite app_length. pose proof (r_princ_length v le (c_client c)). lia. Qed.

Lemma rd_creds_render v le : forall cs fuel,
  Forall (wf_cred v) cs -> (length cs <= fuel)%nat ->
  rd_creds fuel v le (concat (map (r_cred v le) cs)) = Ok cs.
Proof.
  induction cs as [|c cs IH]; intros fuel Hwf Hf.
  - destruct fuel; reflexivity.
  - inversion Hwf as [|? ? Hc Hcs]; subst.
    destruct fuel as [|fuel]; [cbn in Hf; lia|].
    cbn [map concat].
    pose proof (r_cred_length v le c) as Hlen.
    destruct (r_cred v le c ++ concat (map (r_cred v le) cs)) as [|x r] eqn:E.
    { exfalso. apply (f_equal (@length _)) in E. rewrite app_length in E. cbn in E. lia. }
    cbn [rd_creds]. rewrite <- E.
    rewrite rd_credential_render by assumption. cbn [bind].
    rewrite IH by (try assumption; cbn in Hf; lia). reflexivity.
Qed.

Lemma r_hfield_zlen f : zlen (r_hfield f) = 4 + zlen (hf_val f).
Proof. unfold r_hfield. rewrite !zlen_app, !put_zlen. lia. Qed.

Lemma r_hfield_length f : (4 <= length (r_hfield f))%nat.
Proof. pose proof (r_hfield_zlen f). pose proof (zlen_nonneg (hf_val f)). unfold zlen in *. lia. Qed.

(* the loop condition compares the absolute position p with the header length: it holds before every
   field and fails after the last one because a field takes at least 4 bytes *)
Lemma rd_hfields_render : forall fs fuel p hlen rest,
  Forall wf_hfield fs -> p + zlen (r_hbody fs) = 4 + hlen -> (length fs <= fuel)%nat ->
  rd_hfields fuel p hlen (r_hbody fs ++ rest) = Ok (fs, rest).
Proof.
  induction fs as [|f fs IH]; intros fuel p hlen rest Hwf Hp Hf.
  - unfold r_hbody in Hp. cbn [map concat] in Hp. rewrite zlen_nil in Hp.
    destruct fuel; cbn [rd_hfields]; destruct (Z.leb_spec p hlen); try lia; reflexivity.
  - inversion Hwf as [|? ? Hfw Hfs]; subst.
    destruct Hfw as (Htag & Hlen & Hvl & Hk).
    destruct fuel as [|fuel]; [cbn in Hf; lia|].
    unfold r_hbody in *. cbn [map concat] in *. rewrite zlen_app, r_hfield_zlen in Hp.
    pose proof (zlen_nonneg (hf_val f)). pose proof (zlen_nonneg (concat (map r_hfield fs))).
    cbn [rd_hfields]. destruct (Z.leb_spec p hlen); [|lia].
    unfold r_hfield at 1. rewrite <- !app_assoc.
    rewrite rd_int2_eq. cbn [bind]. rewrite rd_int2_eq. cbn [bind]. cbv zeta.
    rewrite !wrap_sint_mod by lia.
    rewrite rd_bytes_app. cbn [bind].
    assert (Hval : hf_valid (hf_tag f) (zlen (hf_val f)) (hf_val f) = true).
    { unfold hf_valid. destruct (Z.eqb_spec (hf_tag f) 1) as [E|]; [|reflexivity].
      rewrite (Hk E). reflexivity. }
    rewrite Hval.
    rewrite IH by (try assumption; try (cbn in Hf; lia); lia). cbn [bind].
    destruct f as [tag len val]; cbn [hf_tag hf_len hf_val] in *. subst len. reflexivity.
Qed.

Lemma rd_header_render fs rest :
  Forall wf_hfield fs -> zlen (r_hbody fs) < 2 ^ 16 ->
  rd_header (r_header fs ++ rest) = Ok (zlen (r_hbody fs), fs, rest).
Proof.
  intros Hwf Hlen. pose proof (zlen_nonneg (r_hbody fs)).
  unfold rd_header, r_header. rewrite <- app_assoc.
  rewrite rd_int2_eq. cbn [bind]. cbv zeta. rewrite wrap_sint_mod by lia.
  rewrite rd_hfields_render; [reflexivity|assumption|lia|].
  rewrite app_length.
  pose proof (concat_length_ge r_hfield 4 fs r_hfield_length). unfold r_hbody. lia.
Qed.

Lemma rd_header_if (c : bool) hlen fs rest :
  (c = true -> hlen = zlen (r_hbody fs) /\ hlen < 2 ^ 16 /\ Forall wf_hfield fs) ->
  (c = false -> hlen = 0 /\ fs = []) ->
  (if c then rd_header ((if c then r_header fs else []) ++ rest)
   else Ok (0, [], (if c then r_header fs else []) ++ rest)) = Ok (hlen, fs, rest).
Proof.
  intros Ht Hf. destruct c.
  - destruct (Ht eq_refl) as (-> & Hl & Hwf). now apply rd_header_render.
  - destruct (Hf eq_refl) as (-> & ->). reflexivity.
Qed.

Theorem cc_parse_grammar m : wf_cc m -> cc_unmarshal (render m) = Ok m.
Proof.
  intros (Hv & H4 & Hn4 & Hp & Hcs).
  destruct m as [v hlen hfs pr cs]; cbn [cc_version cc_hlen cc_hfields cc_princ cc_creds] in *.
  unfold render. cbn [cc_version cc_hfields cc_princ cc_creds app]. unfold cc_unmarshal.
  cbn [Z.eqb Pos.eqb negb].
  destruct (Z.ltb_spec v 1); [lia|]. destruct (Z.ltb_spec 4 v); [lia|]. cbn [orb].
  fold (cc_le v).
  rewrite (rd_header_if (v =? 4) hlen hfs).
  - cbn [bind fst snd]. rewrite rd_principal_render by assumption. cbn [bind].
    rewrite rd_creds_render; [reflexivity|assumption|].
    pose proof (concat_length_ge (r_cred v (cc_le v)) 1 cs (r_cred_length v (cc_le v))). lia.
  - intros E. apply H4, Z.eqb_eq, E.
  - intros E. apply Hn4, Z.eqb_neq, E.
Qed.

(* a header field of an unknown tag, a service credential with addresses and authorization data, and a
   configuration entry; rendered and parsed in all versions *)
Definition ex_princ (nt : Z) : cprinc := mkCP nt [84;69;83;84] [[117;115;101;114]].
Definition ex_cred (nt : Z) : cred :=
  mkCred (ex_princ nt) (mkCP nt [84;69;83;84] [[72;84;84;80];[104]]) 18 [1;2;3;4]
         1500000000 (-5) 2147483647 0 true 1088487424 [(2, [10;0;0;1])] [(1, []); (-3, [7])] [97;98;99] [].
Definition ex_conf (nt : Z) : cred :=
  mkCred (ex_princ nt) (mkCP nt [88;45;67;65;67;72;69;67;79;78;70;58] [[107];[102]]) 0 []
         0 0 0 0 false 0 [] [] [121;101;115] [].
Definition ex_cc (v : Z) : ccache :=
  let nt := if v =? 1 then 0 else 1 in
  if v =? 4
  then mkCC 4 18 [mkHF 1 8 [0;0;0;1;0;0;0;2]; mkHF 7 2 [9;9]] (ex_princ nt) [ex_cred nt; ex_conf nt]
  else mkCC v 0 [] (ex_princ nt) [ex_cred nt; ex_conf nt].

Example grammar_example :
  (wf_cc (ex_cc 1) /\ wf_cc (ex_cc 2) /\ wf_cc (ex_cc 3) /\ wf_cc (ex_cc 4)) /\
  cc_unmarshal (render (ex_cc 1)) = Ok (ex_cc 1) /\ cc_unmarshal (render (ex_cc 2)) = Ok (ex_cc 2) /\
  cc_unmarshal (render (ex_cc 3)) = Ok (ex_cc 3) /\ cc_unmarshal (render (ex_cc 4)) = Ok (ex_cc 4) /\
  render (ex_cc 3) <> render (ex_cc 4) /\ render (ex_cc 1) <> render (ex_cc 2).
Proof.
  split.
  { repeat match goal with |- _ /\ _ => split end; cbv -[Z.lt Z.le Z.pow Z.opp Z.add];
      repeat first [split | constructor | intros ?]; try lia; try discriminate; try reflexivity; try congruence. }
  split; [vm_compute; reflexivity|]. split; [vm_compute; reflexivity|].
  split; [vm_compute; reflexivity|]. split; [vm_compute; reflexivity|].
  split; vm_compute; discriminate.
Qed.
