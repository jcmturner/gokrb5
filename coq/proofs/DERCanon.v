(* Gokrb5.proofs.DERCanon — the converse of decode_encode: the strict decoder accepts only canonical DER.
   Whatever decode reads re-encodes to exactly the octets it consumed (no schema side condition). *)
From Coq Require Import ZifyBool.
From Gokrb5.lib Require Import Bytes JV.
From Gokrb5.model Require Import Schema DER DERCodec.
From Gokrb5.proofs Require Import DERBasic DERTime DEROid DERProofs.

Lemma dec_prim_inv id f b v rest : wf_bytes b -> dec_prim id f b = Some (v, rest) ->
  exists body, b = tlv id body ++ rest /\ wf_bytes body /\ f body = Some v.
Proof.
  unfold dec_prim. intros Hw. destruct (parse_tlv b) as [[[i body] r]|] eqn:E; [|discriminate].
  destruct (Z.eqb_spec i id); [|discriminate]. subst i.
  destruct (f body) as [v'|] eqn:Ef; [|discriminate]. intros H. apply some_inj in H. inversion H; subst.
  apply parse_tlv_canon in E. destruct E as (-> & _). exists body. split; [reflexivity|].
  split; [apply (tlv_wf_inv _ _ _ Hw) | exact Ef].
Qed.

Lemma dec_cons_inv id d b v rest : wf_bytes b -> dec_cons id d b = Some (v, rest) ->
  exists body, b = tlv id body ++ rest /\ wf_bytes body /\ d body = Some (v, []).
Proof.
  unfold dec_cons. intros Hw. destruct (parse_tlv b) as [[[i body] r]|] eqn:E; [|discriminate].
  destruct (Z.eqb_spec i id); [|discriminate]. subst i.
  destruct (d body) as [[v' [|? ?]]|] eqn:Ed; try discriminate. intros H. apply some_inj in H. inversion H; subst.
  apply parse_tlv_canon in E. destruct E as (-> & _). exists body. split; [reflexivity|].
  split; [apply (tlv_wf_inv _ _ _ Hw) | exact Ed].
Qed.

Lemma option_map_inv {A B} (g : A -> B) o y : option_map g o = Some y -> exists x, o = Some x /\ y = g x.
Proof. destruct o as [x|]; [|discriminate]. intros H. apply some_inj in H. eauto. Qed.

(* canonical-form statement for one type *)
Definition canon (t : ty) : Prop :=
  forall fuel b v rest, wf_bytes b -> decode t fuel b = Some (v, rest) ->
  wf_val t v = true /\ b = enc t v ++ rest.

Lemma dec_field_inv fuel tag t b v r : canon t -> wf_bytes b ->
  dec_field (fun t' b' => decode t' fuel b') tag t b = Some (v, r) ->
  wf_val t v = true /\ b = wrap_tag tag (enc t v) ++ r.
Proof.
  intros Hc Hw H. destruct tag as [n|]; cbn [dec_field wrap_tag] in *.
  - apply dec_cons_inv in H; [|exact Hw]. destruct H as (body & -> & Hwb & H).
    apply Hc in H; [|exact Hwb]. destruct H as [Hv ->]. rewrite app_nil_r. auto.
  - apply Hc in H; auto.
Qed.

Lemma dec_fields_inv fuel fs : Forall (fun f : field => canon (snd f)) fs ->
  forall b vs r, wf_bytes b -> dec_fields (fun t' b' => decode t' fuel b') fs b = Some (vs, r) ->
  wf_fields wf_val fs vs = true /\ b = enc_fields enc fs vs ++ r.
Proof.
  induction 1 as [|[[tag opt] t] fs Hc _ IH]; intros b vs r Hw H.
  - cbn in H. apply some_inj in H. inversion H; subst. auto.
  - cbn [snd] in Hc. rewrite dec_fields_cons in H.
    destruct (negb opt || present tag t b) eqn:Hp.
    + destruct (dec_field _ tag t b) as [[v r1]|] eqn:E1; [|discriminate].
      destruct (dec_fields _ fs r1) as [[vs' r2]|] eqn:E2; [|discriminate].
      apply some_inj in H. inversion H; subst vs r2; clear H.
      apply dec_field_inv in E1; auto. destruct E1 as [Hv ->].
      apply wf_bytes_app in Hw. destruct Hw as [_ Hw1].
      apply IH in E2; [|exact Hw1]. destruct E2 as [Hvs ->].
      rewrite wf_fields_cons, enc_fields_cons, Hv, Hvs, <- app_assoc. auto.
    + destruct (dec_fields _ fs b) as [[vs' r2]|] eqn:E2; [|discriminate].
      apply some_inj in H. inversion H; subst vs r2; clear H.
      apply IH in E2; [|exact Hw]. destruct E2 as [Hvs ->].
      rewrite wf_fields_cons, enc_fields_cons, Hvs. destruct opt; [auto | discriminate].
Qed.

Lemma dec_list_inv fuel e : canon e -> forall n b vs, wf_bytes b ->
  dec_list (decode e fuel) n b = Some vs ->
  forallb (wf_val e) vs = true /\ b = flat_map (enc e) vs.
Proof.
  intros Hc. induction n as [|n IH]; intros b vs Hw H.
  - destruct b; [|discriminate]. apply some_inj in H. subst. auto.
  - destruct b as [|x b]; [apply some_inj in H; subst; auto|].
    cbn [dec_list] in H. destruct (decode e fuel (x :: b)) as [[v r]|] eqn:E; [|discriminate].
    destruct (dec_list (decode e fuel) n r) as [l|] eqn:El; [|discriminate].
    apply some_inj in H. subst vs. apply Hc in E; [|exact Hw]. destruct E as [Hv E].
    rewrite E in Hw. apply wf_bytes_app in Hw. destruct Hw as [_ Hwr].
    apply IH in El; [|exact Hwr]. destruct El as [Hl ->].
    cbn [forallb flat_map]. rewrite Hv, Hl, E. auto.
Qed.

Theorem decode_canon : forall t, canon t.
Proof.
  induction t using ty_ind'; intros fuel b v rest Hw Hd; cbn [decode] in Hd.
  1-8: apply dec_prim_inv in Hd; [|exact Hw]; destruct Hd as (body & -> & Hwb & Hd).
  9-11: apply dec_cons_inv in Hd; [|exact Hw]; destruct Hd as (body & -> & Hwb & Hd).
  all: cbn [wf_val enc].
  - (* TInt *) apply option_map_inv in Hd. destruct Hd as (z & E & ->).
    apply dec_int_canon in E. rewrite E. auto.
  - (* TOctets *) apply some_inj in Hd. subst v. split; [apply wf_bytesb_iff, Hwb | reflexivity].
  - (* TGenStr *) apply some_inj in Hd. subst v. split; [apply wf_bytesb_iff, Hwb | reflexivity].
  - (* TGenTime *) apply option_map_inv in Hd. destruct Hd as (s & E & ->).
    apply dec_time_canon in E. destruct E as [E Hok]. rewrite E. auto.
  - (* TBits *) unfold dec_bits in Hd. destruct body as [|u x]; [discriminate|].
    destruct (bits_ok u x) eqn:Hb; [|discriminate]. apply some_inj in Hd. subst v.
    apply wf_bytes_cons in Hwb. destruct Hwb as [_ Hwx]. apply wf_bytesb_iff in Hwx.
    unfold enc_bits. rewrite Hb, Hwx. auto.
  - (* TOid *) apply option_map_inv in Hd. destruct Hd as (a & E & ->).
    apply dec_oid_canon in E. rewrite E. split; [eapply enc_oid_ok, E | reflexivity].
  - (* TEnum *) apply option_map_inv in Hd. destruct Hd as (z & E & ->).
    apply dec_int_canon in E. rewrite E. auto.
  - (* TBool *) unfold dec_bool in Hd. destruct body as [|x [|? ?]]; try discriminate.
    destruct (Z.eqb_spec x 255); [|destruct (Z.eqb_spec x 0); [|discriminate]];
      apply some_inj in Hd; subst; auto.
  - (* TSeq *) destruct (dec_fields _ fs body) as [[vs r]|] eqn:E; [|discriminate].
    apply some_inj in Hd. inversion Hd; subst v r; clear Hd.
    apply (dec_fields_inv fuel fs H) in E; [|exact Hwb]. destruct E as [Hvs ->].
    cbn [wf_val enc]. rewrite app_nil_r. auto.
  - (* TSeqOf *) destruct (dec_list (decode t fuel) fuel body) as [vs|] eqn:E; [|discriminate].
    apply some_inj in Hd. inversion Hd; subst v; clear Hd.
    apply (dec_list_inv fuel t IHt) in E; [|exact Hwb]. destruct E as [Hvs ->]. auto.
  - (* TApp *) apply IHt in Hd; [|exact Hwb]. destruct Hd as [Hv ->]. rewrite app_nil_r. auto.
  - (* TRaw *) destruct (parse_tlv b) as [[[i body] r]|] eqn:E; [|discriminate].
    apply some_inj in Hd. inversion Hd; subst v r; clear Hd.
    apply parse_tlv_canon in E. destruct E as (-> & Hi & Hb).
    apply wf_bytes_app in Hw. destruct Hw as [Hwt _]. apply wf_bytesb_iff in Hwt.
    rewrite Hwt. unfold raw_ok.
    rewrite <- (app_nil_r (tlv i body)) at 1. rewrite parse_tlv_tlv by assumption. auto.
Qed.

(* what decode consumed is the encoding of what it returned *)
Theorem encode_decode_rest t fuel b v rest : wf_bytes b -> decode t fuel b = Some (v, rest) ->
  exists b0, encode t v = Some b0 /\ b = b0 ++ rest.
Proof.
  intros Hw H. apply decode_canon in H; [|exact Hw]. destruct H as [Hv ->].
  exists (enc t v). split; [apply encode_some; auto | reflexivity].
Qed.

(* canonical form: decoding accepts only DER that re-encodes to the same octets *)
Theorem encode_decode t b v : wf_bytes b -> decode_top t b = Some v -> encode t v = Some b.
Proof.
  intros Hw. unfold decode_top. destruct (decode t (S (length b)) b) as [[v' [|? ?]]|] eqn:E; try discriminate.
  intros H. apply some_inj in H. subst v'. apply encode_decode_rest in E; [|exact Hw].
  destruct E as (b0 & He & ->). rewrite app_nil_r. exact He.
Qed.

(* decoding is injective on octet strings *)
Corollary decode_top_injective t b1 b2 v : wf_bytes b1 -> wf_bytes b2 ->
  decode_top t b1 = Some v -> decode_top t b2 = Some v -> b1 = b2.
Proof.
  intros W1 W2 D1 D2. apply encode_decode in D1; [|exact W1]. apply encode_decode in D2; [|exact W2]. congruence.
Qed.

(* the two directions together: on unambiguous schemas and octet strings below 2^32, decode_top and encode
   are mutually inverse partial functions *)
Corollary decode_top_iff t b v : schema_ok t = true -> wf_bytes b -> zlen b < 2 ^ 32 ->
  (decode_top t b = Some v <-> encode t v = Some b).
Proof.
  intros Hok Hw Hl. split.
  - apply encode_decode, Hw.
  - intros He. apply decode_top_encode; auto.
Qed.

Example ex_canon : encode ex_schema ex_value = Some ex_bytes.
Proof. apply encode_decode; [apply wf_bytesb_iff; vm_compute; reflexivity | exact ex_decode]. Qed.
