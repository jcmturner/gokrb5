(* Fail-over completeness, KRB-ERROR surfacing and bounded attempts of the KDC exchange. *)
From Gokrb5.lib Require Import Bytes JV.
From Gokrb5.model Require Import Network.

Definition dead (b : behaviour) : Prop := b = Refuses \/ b = ClosesEarly \/ b = Silent.
Definition no_krb_errors (beh : Z -> transport -> behaviour) : Prop := forall k t c, beh k t <> KrbError c.

Lemma dial_send_dead_step beh t k r :
  dead (beh k t) -> dial_send beh t (k :: r) = (fst (dial_send beh t r), k :: snd (dial_send beh t r)).
Proof. intros [E|[E|E]]; cbn [dial_send]; rewrite E; destruct (dial_send beh t r); reflexivity. Qed.

Lemma dial_send_dead_prefix beh t pre l :
  (forall j, In j pre -> dead (beh j t)) ->
  dial_send beh t (pre ++ l) = (fst (dial_send beh t l), pre ++ snd (dial_send beh t l)).
Proof.
  induction pre as [|j pre IH]; intros Hd; cbn [app]; [destruct (dial_send beh t l); reflexivity|].
  rewrite dial_send_dead_step by (apply Hd; left; reflexivity).
  rewrite IH by (intros j' Hj'; apply Hd; right; exact Hj'). reflexivity.
Qed.

Lemma dial_send_all_dead beh t order :
  (forall k, In k order -> dead (beh k t)) -> dial_send beh t order = (CommErr, order).
Proof. intros Hd. rewrite <- (app_nil_r order) at 1. rewrite dial_send_dead_prefix by exact Hd. cbn. now rewrite app_nil_r. Qed.

Lemma behaviour_cases b : dead b \/ (exists x, b = Answers x) \/ (exists c, b = KrbError c).
Proof. destruct b; unfold dead; eauto. Qed.

Lemma dial_send_result beh t order :
  match fst (dial_send beh t order) with
  | Reply x => exists k, In k order /\ beh k t = Answers x
  | KrbErr c => exists k, In k order /\ beh k t = KrbError c
  | CommErr => forall k, In k order -> dead (beh k t)
  end.
Proof.
  induction order as [|k r IH]; [intros k []|].
  destruct (behaviour_cases (beh k t)) as [D|[(x & E)|(c & E)]].
  - rewrite dial_send_dead_step by exact D. cbn [fst]. destruct (fst (dial_send beh t r)).
    + destruct IH as (k' & Hin & B). exists k'. split; [right; exact Hin|exact B].
    + destruct IH as (k' & Hin & B). exists k'. split; [right; exact Hin|exact B].
    + intros k' [<-|Hin]; auto.
  - cbn [dial_send]. rewrite E. exists k. split; [left; reflexivity|exact E].
  - cbn [dial_send]. rewrite E. exists k. split; [left; reflexivity|exact E].
Qed.

Lemma dial_send_reply_sound beh t order x :
  fst (dial_send beh t order) = Reply x -> exists k, In k order /\ beh k t = Answers x.
Proof. intros E. pose proof (dial_send_result beh t order) as R. rewrite E in R. exact R. Qed.

Lemma dial_send_krberr_sound beh t order c :
  fst (dial_send beh t order) = KrbErr c -> exists k, In k order /\ beh k t = KrbError c.
Proof. intros E. pose proof (dial_send_result beh t order) as R. rewrite E in R. exact R. Qed.

Lemma dial_send_commerr beh t order :
  fst (dial_send beh t order) = CommErr <-> (forall k, In k order -> dead (beh k t)).
Proof.
  split.
  - intros E. pose proof (dial_send_result beh t order) as R. rewrite E in R. exact R.
  - intros Hd. now rewrite dial_send_all_dead.
Qed.

Lemma dial_send_attempts_prefix beh t order :
  exists rest, order = snd (dial_send beh t order) ++ rest.
Proof.
  induction order as [|k r IH]; [exists []; reflexivity|].
  destruct (behaviour_cases (beh k t)) as [D|[(x & E)|(c & E)]].
  - rewrite dial_send_dead_step by exact D. destruct IH as (rest & IH). exists rest. cbn [snd app]. now rewrite <- IH.
  - cbn [dial_send]. rewrite E. exists r. reflexivity.
  - cbn [dial_send]. rewrite E. exists r. reflexivity.
Qed.

Lemma dial_send_attempts_le beh t order : (length (snd (dial_send beh t order)) <= length order)%nat.
Proof. destruct (dial_send_attempts_prefix beh t order) as (rest & E). rewrite E at 2. rewrite app_length. lia. Qed.

Definition tagl (t : transport) (l : list Z) : list (Z * transport) := map (fun k => (k, t)) l.

Definition first_transport (mode : Z) : transport := if mode =? 1 then UDP else TCP.
Definition other_transport (t : transport) : transport := match t with UDP => TCP | TCP => UDP end.

(* sendToKDC tries the other transport after the first: never with udp_preference_limit 1; else on a communication
   error, and on response-too-big when the first transport was UDP *)
Definition goes_on (mode : Z) (r : result) : bool :=
  negb (mode =? 0) &&
  match r with Reply _ => false | KrbErr c => (mode =? 1) && (c =? too_big) | CommErr => true end.

Definition order_of (ou ot : list Z) (t : transport) : list Z := match t with UDP => ou | TCP => ot end.
Definition dial beh (ou ot : list Z) (t : transport) : result * list Z := dial_send beh t (order_of ou ot t).

Lemma send_to_kdc_eq mode beh ou ot :
  let t1 := first_transport mode in let t2 := other_transport t1 in let D := dial beh ou ot in
  send_to_kdc mode beh ou ot =
    if goes_on mode (fst (D t1)) then (fst (D t2), tagl t1 (snd (D t1)) ++ tagl t2 (snd (D t2)))
    else (fst (D t1), tagl t1 (snd (D t1))).
Proof.
  cbn zeta.
  unfold send_to_kdc, goes_on, first_transport, dial, tagl.
  destruct (Z.eqb_spec mode 0) as [->|_]; cbn [Z.eqb negb andb order_of].
  - destruct (dial_send beh TCP ot); reflexivity.
  - destruct (mode =? 1); cbn [other_transport order_of andb].
    + destruct (dial_send beh UDP ou) as [[x|c|] au]; cbn [fst snd].
      * reflexivity.
      * destruct (c =? too_big); destruct (dial_send beh TCP ot); reflexivity.
      * destruct (dial_send beh TCP ot); reflexivity.
    + destruct (dial_send beh TCP ot) as [[x|c|] at_]; cbn [fst snd].
      * reflexivity.
      * reflexivity.
      * destruct (dial_send beh UDP ou); reflexivity.
Qed.

Lemma first_transport_permitted mode : first_transport mode = UDP -> mode <> 0.
Proof. unfold first_transport. destruct (Z.eqb_spec mode 1); [lia|discriminate]. Qed.

Lemma goes_on_permitted mode r : goes_on mode r = true -> mode <> 0.
Proof. unfold goes_on. destruct (Z.eqb_spec mode 0); [discriminate|auto]. Qed.

Lemma answers_not_dead b x : b = Answers x -> ~ dead b.
Proof. intros -> [D|[D|D]]; discriminate. Qed.

Lemma dial_send_reply_or_dead beh t order :
  no_krb_errors beh ->
  (exists y, fst (dial_send beh t order) = Reply y /\ exists k, In k order /\ beh k t = Answers y) \/
  (fst (dial_send beh t order) = CommErr /\ forall k, In k order -> dead (beh k t)).
Proof.
  intros Hne. pose proof (dial_send_result beh t order) as R.
  destruct (fst (dial_send beh t order)) as [y|c|].
  - left. exists y. auto.
  - destruct R as (k & _ & B). destruct (Hne _ _ _ B).
  - right. auto.
Qed.

(* If some configured KDC answers over a permitted transport and every other endpoint is dead (refuses,
   closes early or is silent), the exchange returns an answer that some endpoint gave — for every server
   order and whichever transport the size preference tries first. *)
Theorem failover_complete mode beh ou ot :
  no_krb_errors beh ->
  (exists k x, In k ot /\ beh k TCP = Answers x) \/
  (mode <> 0 /\ exists k x, In k ou /\ beh k UDP = Answers x) ->
  exists y, fst (send_to_kdc mode beh ou ot) = Reply y /\
            exists k t, beh k t = Answers y /\ In k (match t with UDP => ou | TCP => ot end).
Proof.
  intros Hne Hlive. rewrite send_to_kdc_eq. cbn zeta. unfold dial.
  set (t1 := first_transport mode).
  destruct (dial_send_reply_or_dead beh t1 (order_of ou ot t1) Hne) as [(y & E1 & k & Hin & B)|[E1 D1]]; rewrite E1.
  - unfold goes_on. rewrite andb_false_r. exists y. split; [reflexivity|]. exists k, t1. auto.
  - unfold goes_on. rewrite andb_true_r. destruct (Z.eqb_spec mode 0) as [M0|M0]; cbn [negb fst].
    + (* TCP only, and every TCP endpoint dead: excluded by the hypothesis *)
      subst mode. destruct Hlive as [(k & x & Hin & B)|[M _]]; [|now destruct M].
      destruct (answers_not_dead _ _ B (D1 k Hin)).
    + set (t2 := other_transport t1).
      destruct (dial_send_reply_or_dead beh t2 (order_of ou ot t2) Hne) as [(y & E2 & k & Hin & B)|[E2 D2]].
      * rewrite E2. exists y. split; [reflexivity|]. exists k, t2. auto.
      * assert (forall t k, In k (order_of ou ot t) -> dead (beh k t)) as Dall
          by (intros t; subst t2; destruct t, t1; assumption).
        destruct Hlive as [(k & x & Hin & B)|(_ & k & x & Hin & B)].
        -- destruct (answers_not_dead _ _ B (Dall TCP k Hin)).
        -- destruct (answers_not_dead _ _ B (Dall UDP k Hin)).
Qed.

Theorem krb_error_sound mode beh ou ot c :
  fst (send_to_kdc mode beh ou ot) = KrbErr c -> exists k t, beh k t = KrbError c.
Proof.
  rewrite send_to_kdc_eq. cbn zeta. unfold dial.
  destruct (goes_on _ _); cbn [fst]; intros E; apply dial_send_krberr_sound in E; destruct E as (k & _ & B); eauto.
Qed.

Lemma dial_send_first_krberr beh t pre k post c :
  (forall j, In j pre -> dead (beh j t)) -> beh k t = KrbError c ->
  dial_send beh t (pre ++ k :: post) = (KrbErr c, pre ++ [k]).
Proof. intros Hd Hk. rewrite dial_send_dead_prefix by exact Hd. cbn [dial_send]. rewrite Hk. reflexivity. Qed.

Lemma send_to_kdc_first_krberr mode beh ou ot c :
  fst (dial beh ou ot (first_transport mode)) = KrbErr c -> (mode = 1 -> c <> too_big) ->
  fst (send_to_kdc mode beh ou ot) = KrbErr c.
Proof.
  intros E Hc. rewrite send_to_kdc_eq. cbn zeta. rewrite E.
  replace (goes_on mode (KrbErr c)) with false; [reflexivity|].
  unfold goes_on. destruct (Z.eqb_spec mode 1) as [M|M]; cbn [andb]; [|now rewrite andb_false_r].
  apply Hc, Z.eqb_neq in M. rewrite M. now rewrite andb_false_r.
Qed.

(* When the first live endpoint of the transport tried first answers KRB-ERROR c, that error is the result;
   only response-too-big over UDP (UDP tried first) falls back to TCP. *)
Theorem krb_error_surfaces mode beh pre k post other c :
  (forall j, In j pre -> dead (beh j (if mode =? 1 then UDP else TCP))) ->
  beh k (if mode =? 1 then UDP else TCP) = KrbError c ->
  (mode = 1 -> c <> too_big) ->
  fst (if mode =? 1 then send_to_kdc mode beh (pre ++ k :: post) other
       else send_to_kdc mode beh other (pre ++ k :: post)) = KrbErr c.
Proof.
  intros Hd Hk Hc.
  destruct (mode =? 1) eqn:M; apply send_to_kdc_first_krberr; try exact Hc;
    unfold dial, first_transport; rewrite M; cbn [order_of]; now rewrite (dial_send_first_krberr _ _ _ _ _ c).
Qed.

Theorem too_big_falls_back_to_tcp beh pre k post ot :
  (forall j, In j pre -> dead (beh j UDP)) -> beh k UDP = KrbError too_big ->
  fst (send_to_kdc 1 beh (pre ++ k :: post) ot) = fst (dial_send beh TCP ot).
Proof.
  intros Hd Hk. rewrite send_to_kdc_eq. cbn zeta. change (first_transport 1) with UDP. unfold dial.
  cbn [order_of other_transport]. rewrite (dial_send_first_krberr _ _ _ _ _ too_big) by assumption. reflexivity.
Qed.

(* If no server works the call fails, after at most one attempt per endpoint. *)
Theorem all_dead_fails mode beh ou ot :
  (forall k t, dead (beh k t)) -> fst (send_to_kdc mode beh ou ot) = CommErr.
Proof.
  intros Hd. rewrite send_to_kdc_eq. cbn zeta. unfold dial.
  rewrite !dial_send_all_dead by (intros; apply Hd). destruct (goes_on _ _); reflexivity.
Qed.

Theorem attempts_bounded mode beh ou ot :
  (length (snd (send_to_kdc mode beh ou ot)) <= length ou + length ot)%nat.
Proof.
  assert (forall t, length (tagl t (snd (dial beh ou ot t))) <= length (order_of ou ot t))%nat as L
    by (intros t; unfold tagl, dial; rewrite map_length; apply dial_send_attempts_le).
  rewrite send_to_kdc_eq. cbn zeta.
  pose proof (L (first_transport mode)) as L1. pose proof (L (other_transport (first_transport mode))) as L2.
  destruct (goes_on _ _); cbn [snd]; rewrite ?app_length;
    destruct (first_transport mode); cbn [other_transport order_of] in *; lia.
Qed.

(* non-vacuity: TCP first, both TCP endpoints dead, second UDP endpoint answers *)
Example failover_example :
  let beh := beh_table [(Silent, Refuses); (Answers 7, ClosesEarly)] in
  send_to_kdc 2 beh [0; 1] [1; 0] = (Reply 7, [(1, TCP); (0, TCP); (0, UDP); (1, UDP)]).
Proof. reflexivity. Qed.
