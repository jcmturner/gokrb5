(* Gokrb5.proofs.MsgProofs — Ticket.Marshal and MarshalTicketSequence.
   * repaired Ticket.Marshal does not depend on the decrypted part (it is literally not an input of the bytes);
   * the pinned Ticket.Marshal agrees with it on a ticket that was never decrypted, and is REFUTED on a
     decrypted one: the plaintext EncTicketPart is appended inside the Ticket SEQUENCE;
   * MarshalTicketSequence (hand-written 0x30 + MarshalLengthBytes) is the DER SEQUENCE OF Ticket, so the
     codec's decoder reads back the n tickets that were put in, for every n. *)
From Gokrb5.lib Require Import Bytes JV.
From Gokrb5.model Require Import Schema DER DERCodec RFCSchemas LenOctets Msg.
From Gokrb5.proofs Require Import DERBasic DERProofs LenOctetsProofs.

Local Open Scope Z_scope.

Theorem ticket_marshal_ignores_decrypted_part w d : ticket_marshal (mkTicket w d) = ticket_marshal (mkTicket w None).
Proof. reflexivity. Qed.

(* the pinned code is right as long as the ticket was never decrypted *)
Theorem ticket_marshal_orig_undecrypted w :
  wf_fields wf_val ticket_fields w = true ->
  ticket_marshal_orig (mkTicket w None) = ticket_marshal (mkTicket w None).
Proof.
  intros H. unfold ticket_marshal_orig, ticket_marshal, go_ticket_struct, encode. cbn [t_wire t_decrypted wf_val enc].
  destruct (fields_app [(None, true, enc_ticket_part_seq)] [None] ticket_fields w H) as [W E].
  rewrite W, E, H. cbn [wf_fields enc_fields]. rewrite app_nil_r. reflexivity.
Qed.

(* ... and appends the plaintext EncTicketPart SEQUENCE once it was *)
Theorem ticket_marshal_orig_appends_plaintext w d :
  wf_fields wf_val ticket_fields w = true -> wf_val enc_ticket_part_seq d = true ->
  ticket_marshal_orig (mkTicket w (Some d)) =
    Some (app_tag_1 (tlv id_seq (enc_fields enc ticket_fields w ++ enc enc_ticket_part_seq d))) /\
  ticket_marshal (mkTicket w (Some d)) = Some (app_tag_1 (tlv id_seq (enc_fields enc ticket_fields w))).
Proof.
  intros H Hd. unfold ticket_marshal_orig, ticket_marshal, go_ticket_struct, encode. cbn [t_wire t_decrypted wf_val enc].
  destruct (fields_app [(None, true, enc_ticket_part_seq)] [Some d] ticket_fields w H) as [W E].
  rewrite W, E, H. cbn [wf_fields enc_fields wrap_tag]. rewrite Hd, app_nil_r. split; reflexivity.
Qed.

(* a concrete decrypted ticket: krbtgt/R@R, etype 18, and a minimal decrypted part *)
Definition ex_wire : list (option value) :=
  [Some (VInt 5); Some (VBytes [82]);
   Some (VSeq [Some (VInt 2); Some (VList [VBytes [107;114;98;116;103;116]; VBytes [82]])]);
   Some (VSeq [Some (VInt 18); Some (VInt 1); Some (VBytes [1;2;3;4])])].
Definition ex_decrypted : value :=
  VSeq [Some (VBits 0 [0;0;0;0]); Some (VSeq [Some (VInt 18); Some (VBytes [9;9;9;9])]); Some (VBytes [82]);
        Some (VSeq [Some (VInt 1); Some (VList [VBytes [117]])]); Some (VSeq [Some (VInt 0); Some (VBytes [])]);
        Some (VTime 1700000000); None; Some (VTime 1700003600); None; None; None].

Theorem ticket_marshal_orig_refuted :
  exists w d, ticket_marshal_orig (mkTicket w (Some d)) <> ticket_marshal_orig (mkTicket w None) /\
              ticket_marshal_orig (mkTicket w None) <> None.
Proof. exists ex_wire, ex_decrypted. split; vm_compute; discriminate. Qed.

Example ticket_marshal_orig_lengths :
  option_map (@length Z) (ticket_marshal_orig (mkTicket ex_wire None)) = Some 60%nat /\
  option_map (@length Z) (ticket_marshal_orig (mkTicket ex_wire (Some ex_decrypted))) = Some 162%nat /\
  option_map (@length Z) (ticket_marshal (mkTicket ex_wire (Some ex_decrypted))) = Some 60%nat.
Proof. vm_compute. repeat split. Qed.

Definition ticket_value (t : ticket) : value := VSeq (t_wire t).
Definition wf_ticket (t : ticket) : bool := wf_val rfc_Ticket (ticket_value t).

Lemma ticket_marshal_enc t : wf_ticket t = true -> ticket_marshal t = Some (enc rfc_Ticket (ticket_value t)).
Proof.
  unfold wf_ticket, ticket_value. intros H. unfold ticket_marshal, encode.
  change (wf_val rfc_Ticket (VSeq (t_wire t))) with (wf_val (TSeq ticket_fields) (VSeq (t_wire t))) in H.
  rewrite H. reflexivity.
Qed.

Lemma concat_marshal_enc ts : forallb wf_ticket ts = true ->
  concat_marshal ts = Some (flat_map (enc rfc_Ticket) (map ticket_value ts)).
Proof.
  induction ts as [| t r IH]; intros H; [reflexivity|].
  cbn [forallb] in H. apply andb_true_iff in H. destruct H as [Ht Hr].
  cbn [concat_marshal map flat_map]. rewrite (ticket_marshal_enc t Ht), (IH Hr). reflexivity.
Qed.

(* the hand-written framing is the DER SEQUENCE OF Ticket *)
Theorem ticket_seq_marshal_is_seqof ts b :
  ts <> [] -> forallb wf_ticket ts = true ->
  encode (TSeqOf rfc_Ticket) (VList (map ticket_value ts)) = Some b -> zlen b < 2 ^ 56 ->
  ticket_seq_marshal ts = Ok b.
Proof.
  intros Hne Hwf He Hlen. apply encode_some in He. destruct He as [_ ->].
  unfold ticket_seq_marshal. destruct ts as [| t r]; [congruence|].
  rewrite (concat_marshal_enc _ Hwf). cbn [enc] in *.
  set (body := flat_map (enc rfc_Ticket) (map ticket_value (t :: r))) in *.
  pose proof (zlen_tlv id_seq body) as Hz. pose proof (zlen_nonneg body).
  rewrite marshal_len_codec by lia. cbn [bind]. reflexivity.
Qed.

Lemma ticket_seq_schema_ok : schema_ok (TSeqOf rfc_Ticket) = true.
Proof. vm_compute. reflexivity. Qed.

(* round trip for every number of additional tickets *)
Theorem ticket_seq_roundtrip ts b :
  ts <> [] -> forallb wf_ticket ts = true ->
  encode (TSeqOf rfc_Ticket) (VList (map ticket_value ts)) = Some b -> zlen b < 2 ^ 32 ->
  ticket_seq_marshal ts = Ok b /\ decode_top (TSeqOf rfc_Ticket) b = Some (VList (map ticket_value ts)).
Proof.
  intros Hne Hwf He Hlen. split.
  - apply ticket_seq_marshal_is_seqof; auto. lia.
  - apply (decode_top_encode _ _ _ ticket_seq_schema_ok He Hlen).
Qed.

Theorem ticket_seq_empty : ticket_seq_marshal [] = Ok [].
Proof. reflexivity. Qed.

Example ticket_seq_ex :
  exists b, ticket_seq_marshal [mkTicket ex_wire None; mkTicket ex_wire (Some ex_decrypted)] = Ok b /\
            decode_top (TSeqOf rfc_Ticket) b = Some (VList [VSeq ex_wire; VSeq ex_wire]).
Proof. eexists. split; vm_compute; reflexivity. Qed.
