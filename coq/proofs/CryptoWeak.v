(* RFC 3961 6.3.1 weak-key correction: no 8-octet part of a des3 random-to-key output is one of the sixteen weak
   or semi-weak DES keys (the list of the RFC / NIST SP 800-67), for every input. *)
From Gokrb5.lib Require Import Bytes JV.
From Gokrb5.model Require Import Crypto.
From Gokrb5.proofs Require Import CryptoKeys.

Definition des_weak (k : bytes) : bool := existsb (beq_bytes k) des_weak_keys.

(* correcting a weak key never lands on another weak key: finite sweep over the table *)
Lemma fix_of_weak_not_weak : forallb (fun k => negb (des_weak (fix_weak k))) des_weak_keys = true.
Proof. vm_compute. reflexivity. Qed.

Theorem fix_weak_not_weak k : des_weak (fix_weak k) = false.
Proof.
  destruct (des_weak k) eqn:W.
  - unfold des_weak in W. apply existsb_exists in W. destruct W as (w & Hin & E).
    apply beq_bytes_eq in E. subst w.
    pose proof fix_of_weak_not_weak as A. rewrite forallb_forall in A.
    specialize (A k Hin). apply negb_true_iff in A. exact A.
  - unfold fix_weak. unfold des_weak in W. rewrite W. exact W.
Qed.

Lemma fix_weak_id k : des_weak k = false -> fix_weak k = k.
Proof. unfold des_weak, fix_weak. intros ->. reflexivity. Qed.

Lemma fix_weak_changes_last k : des_weak k = true ->
  fix_weak k = firstn 7 k ++ [Z.lxor (nth 7 k 0) 240].
Proof. unfold des_weak, fix_weak. intros ->. reflexivity. Qed.

Theorem des3_random_to_key_no_weak_part b : (21 <= length b)%nat ->
  exists k1 k2 k3, des3_random_to_key b = k1 ++ k2 ++ k3 /\
    length k1 = 8%nat /\ length k2 = 8%nat /\ length k3 = 8%nat /\
    des_weak k1 = false /\ des_weak k2 = false /\ des_weak k3 = false.
Proof.
  intros H. destruct (des3_random_to_key_parts b H) as (p1 & p2 & p3 & L1 & L2 & L3 & ->).
  exists (fix_weak p1), (fix_weak p2), (fix_weak p3).
  rewrite !fix_weak_length, !fix_weak_not_weak by assumption. repeat split.
Qed.
