(* Gokrb5.proofs.GoASN1Proofs — the lenient decoder of model/GoASN1.v (what gofork asn1 accepts) returns, on every
   DER encoding written by DERCodec.enc for the erased type, exactly the encoded value and the untouched rest:
     gdec_enc          for every Go type description with explicit context tags (gok) and every value in Go's ranges (wfg)
     unmarshal_app_enc the same through [APPLICATION n], octets after the element ignored
     grt_trailer       a struct whose last field is an untagged OPTIONAL struct (messages.Ticket.DecryptedEncPart):
                       decoded with and without the trailing element.
   model/GoASN1.v and section 1 of model/KDCRepBytes.v (proofs/KDCRepBytesDec.v) are two models of the same gofork
   decoder, written independently; this one serves the AP-REQ side (C01, C13b), that one the KDC-REP side (C09, C13b);
   no lemma relates them. *)
From Coq Require Import ZifyBool.
From Gokrb5.lib Require Import Bytes JV.
From Gokrb5.model Require Import Schema DER DERCodec GoASN1.
From Gokrb5.proofs Require Import DERBasic DERTime DERProofs.

Section GtyInd.
  Variable P : gty -> Prop.
  Hypothesis HInt : forall w, P (GInt w).
  Hypothesis HBytes : P GBytes.
  Hypothesis HString : P GString.
  Hypothesis HTime : P GTime.
  Hypothesis HBits : P GBits.
  Hypothesis HStruct : forall fs : list gfield, Forall (fun f => P (snd f)) fs -> P (GStruct fs).
  Hypothesis HSlice : forall e, P e -> P (GSlice e).
  Hypothesis HRaw : P GRaw.

  Fixpoint gty_ind' (g : gty) : P g :=
    match g with
    | GInt w => HInt w | GBytes => HBytes | GString => HString | GTime => HTime | GBits => HBits
    | GStruct fs =>
      HStruct fs ((fix go (l : list gfield) : Forall (fun f => P (snd f)) l :=
                     match l with
                     | [] => Forall_nil _
                     | f :: r => Forall_cons f (match f as f0 return P (snd f0) with (_, g') => gty_ind' g' end)
                                             (go r)
                     end) fs)
    | GSlice e => HSlice e (gty_ind' e)
    | GRaw => HRaw
    end.
End GtyInd.

Definition erase_fields : list gfield -> list field :=
  fix go (l : list gfield) : list field :=
    match l with
    | [] => []
    | (tag, opt, g') :: r => (tag, opt, erase g') :: go r
    end.

Lemma erase_struct fs : erase (GStruct fs) = TSeq (erase_fields fs).
Proof. reflexivity. Qed.

Lemma erase_fields_cons tag opt g fs : erase_fields ((tag, opt, g) :: fs) = (tag, opt, erase g) :: erase_fields fs.
Proof. reflexivity. Qed.

Lemma erase_fields_app a b : erase_fields (a ++ b) = erase_fields a ++ erase_fields b.
Proof.
  induction a as [|[[tag opt] g] a IH]; [reflexivity|].
  cbn [app]. rewrite !erase_fields_cons, IH. reflexivity.
Qed.

Definition fits31 : nat -> bytes -> Prop := fits_below (2 ^ 31).

Lemma fits31_tlv fuel id body : fits31 fuel (tlv id body) -> fits31 fuel body.
Proof. apply fits_tlv. Qed.

Definition hdr_id (id n : Z) : hdr := mkHdr (id / 64) ((id / 32) mod 2 =? 1) (id mod 32) n.

Lemma ghdr_tlv id body rest : id mod 32 <> 31 -> zlen body < 2 ^ 31 ->
  ghdr (tlv id body ++ rest) = Some (hdr_id id (zlen body), body ++ rest).
Proof.
  intros Hid Hb. unfold tlv. cbn [app ghdr]. destruct (Z.eqb_spec (id mod 32) 31); [contradiction|].
  unfold glen. rewrite <- app_assoc, parse_len_der_len by (pose proof (zlen_nonneg body); lia).
  replace (zlen body <? 2 ^ 31) with true by lia. reflexivity.
Qed.

Lemma ident_hdr cls n : 0 <= cls <= 3 -> gtag_ok n = true ->
  ident cls true n mod 32 <> 31 /\ hdr_id (ident cls true n) = mkHdr cls true n.
Proof.
  intros Hc Hn. apply tag_ok_range in Hn. destruct (ident_spec cls true n Hc Hn) as (_ & E1 & E2 & E3).
  unfold hdr_id. rewrite E1, E2, E3. split; [lia | reflexivity].
Qed.

Lemma ident_ctx n : gtag_ok n = true -> ident 2 true n mod 32 <> 31 /\ hdr_id (ident 2 true n) = mkHdr 2 true n.
Proof. apply ident_hdr. lia. Qed.

Lemma ident_app n : gtag_ok n = true -> ident 1 true n mod 32 <> 31 /\ hdr_id (ident 1 true n) = mkHdr 1 true n.
Proof. apply ident_hdr. lia. Qed.

Lemma enc_nonempty g v : wfg g v = true -> enc (erase g) v <> [].
Proof.
  destruct g; destruct v; cbn [wfg]; try discriminate; intros H; cbn [erase enc]; try apply tlv_nonempty.
  destruct b; discriminate.
Qed.

Lemma wrap_nonempty tag g v : wfg g v = true -> wrap_tag tag (enc (erase g) v) <> [].
Proof. intros H. destruct tag as [n|]; [apply tlv_nonempty | apply enc_nonempty, H]. Qed.

Lemma gty_eq_raw g : g = GRaw \/ g <> GRaw.
Proof. destruct g; (left; reflexivity) || (right; discriminate). Qed.

Lemma match_app_nonempty {A B} (l r : list A) (X Y : B) :
  l <> [] -> match l ++ r with [] => X | _ :: _ => Y end = Y.
Proof. intros H. apply match_cons, app_nonempty_l, H. Qed.

(* D fuel: the contents decoder handed to gelem / gfield_dec; grt g: the round trip of one element of Go type g *)
Definition D (fuel : nat) : gty -> hdr -> bytes -> option value := fun g' h' b' => gdec g' fuel h' b'.

Definition grt (g : gty) : Prop :=
  forall v fuel rest opt orig, wfg g v = true -> fits31 fuel (enc (erase g) v) ->
  gelem (D fuel) g opt orig (enc (erase g) v ++ rest) = Some (Some v, rest).

Lemma gfield_dec_nonraw dec ecls tag opt g b : g <> GRaw -> b <> [] ->
  gfield_dec dec ecls tag opt g b =
  match tag with
  | None => gelem dec g opt b b
  | Some n =>
    match ghdr b with
    | None => None
    | Some (h, r) =>
      match r with
      | [] => None
      | _ :: _ =>
        if (h_cls h =? ecls) && (h_tag h =? n) && ((h_len h =? 0) || h_cons h) then
          if h_len h =? 0 then None else gelem dec g opt b r
        else if opt then Some (None, b) else None
      end
    end
  end.
Proof. intros H Hb. destruct b; [congruence|]. destruct g; try reflexivity. contradiction. Qed.

Lemma gfield_dec_raw dec ecls tag opt b : b <> [] ->
  gfield_dec dec ecls tag opt GRaw b =
  match ghdr b with
  | Some (h, r) => match splitz r (h_len h) with Some (body, rest) => Some (Some (VBytes body), rest) | None => None end
  | None => None
  end.
Proof. destruct b; [congruence | reflexivity]. Qed.

(* a field expected under [ecls n] when the input starts with the TLV [cls' n'] with non-empty contents: taken
   when the two agree, absent otherwise; the length of the wrapper is not looked at again *)
Lemma gfield_dec_tlv dec ecls n opt g cls' n' body rest :
  g <> GRaw -> 0 <= cls' <= 3 -> gtag_ok n' = true -> body <> [] -> zlen body < 2 ^ 31 ->
  gfield_dec dec ecls (Some n) opt g (tlv (ident cls' true n') body ++ rest) =
  if (cls' =? ecls) && (n' =? n) then gelem dec g opt (tlv (ident cls' true n') body ++ rest) (body ++ rest)
  else if opt then Some (None, tlv (ident cls' true n') body ++ rest) else None.
Proof.
  intros Hnr Hc Hn Hb Hl. destruct (ident_hdr cls' n' Hc Hn) as [Hid Hh].
  rewrite gfield_dec_nonraw by (auto; apply tlv_app_nonempty). rewrite ghdr_tlv, Hh by assumption.
  cbn [h_cls h_tag h_len h_cons]. rewrite match_app_nonempty by exact Hb. pose proof (zlen_pos body Hb).
  rewrite orb_true_r, andb_true_r. replace (zlen body =? 0) with false by lia. reflexivity.
Qed.

(* a present field under an explicit tag of class ecls (2: context, 1: application), for any octets body the
   element decoder reads v from *)
Lemma gfield_explicit_gen fuel ecls n opt g v body rest :
  (ecls = 1 \/ ecls = 2) -> gtag_ok n = true -> g <> GRaw -> body <> [] ->
  fits31 fuel (tlv (ident ecls true n) body) ->
  gelem (D fuel) g opt (tlv (ident ecls true n) body ++ rest) (body ++ rest) = Some (Some v, rest) ->
  gfield_dec (D fuel) ecls (Some n) opt g (tlv (ident ecls true n) body ++ rest) = Some (Some v, rest).
Proof.
  intros Hc Hn Hnr Hne Hfit Hel. apply fits31_tlv in Hfit.
  rewrite gfield_dec_tlv by first [assumption | lia | apply Hfit]. rewrite !Z.eqb_refl. exact Hel.
Qed.

Lemma gfield_explicit fuel ecls n opt g v rest :
  (ecls = 1 \/ ecls = 2) -> gtag_ok n = true -> (g <> GRaw -> grt g) -> wfg g v = true ->
  fits31 fuel (tlv (ident ecls true n) (enc (erase g) v)) ->
  gfield_dec (D fuel) ecls (Some n) opt g (tlv (ident ecls true n) (enc (erase g) v) ++ rest) = Some (Some v, rest).
Proof.
  intros Hc Hn Hrt Hwf Hfit. pose proof (fits31_tlv _ _ _ Hfit) as Hfb.
  destruct (gty_eq_raw g) as [-> | Hnr].
  - (* RawValue: takes the whole [n] element, returns its contents *)
    destruct v; cbn [wfg] in Hwf; try discriminate. cbn [erase enc] in *.
    destruct (ident_hdr ecls n ltac:(lia) Hn) as [Hid _].
    rewrite gfield_dec_raw by apply tlv_app_nonempty. rewrite ghdr_tlv by (auto; apply Hfb).
    unfold hdr_id. cbn [h_len]. rewrite splitz_app. reflexivity.
  - apply gfield_explicit_gen; auto; [apply enc_nonempty, Hwf|]. apply Hrt; assumption.
Qed.

Lemma gfields_cons dec tag opt g fs b :
  gfields dec ((tag, opt, g) :: fs) b =
  match gfield_dec dec 2 tag opt g b with
  | Some (o, r) => match gfields dec fs r with Some (os, r') => Some (o :: os, r') | None => None end
  | None => None
  end.
Proof. reflexivity. Qed.

Lemma wfg_fields_cons (w : gty -> value -> bool) tag opt g fs o vs :
  wfg_fields w ((tag, opt, g) :: fs) (o :: vs) =
  (match o with Some v => w g v | None => opt end) && wfg_fields w fs vs.
Proof. reflexivity. Qed.

Lemma gfields_ok_cons ok n opt g fs :
  gfields_ok ok ((Some n, opt, g) :: fs) =
  gtag_ok n && ok g && (match g with GRaw => negb opt | _ => true end)
  && (if opt then forallb (gids_distinct n) (gfirst fs) else true) && gfields_ok ok fs.
Proof. reflexivity. Qed.

Lemma gfields_ok_inv ok n opt g fs : gfields_ok ok ((Some n, opt, g) :: fs) = true ->
  gtag_ok n = true /\ ok g = true /\ (match g with GRaw => negb opt | _ => true end) = true /\
  (if opt then forallb (gids_distinct n) (gfirst fs) else true) = true /\ gfields_ok ok fs = true.
Proof. rewrite gfields_ok_cons. intros H. repeat rewrite andb_true_iff in H. tauto. Qed.

(* the last field is mandatory: an absent trailing OPTIONAL field would make the decoder read a header from whatever
   follows the struct's encoding, so octets may follow only under this condition *)
Fixpoint ends_mand (fs : list gfield) : bool :=
  match fs with
  | [] => true
  | (_, opt, _) :: fs' => match fs' with [] => negb opt | _ :: _ => ends_mand fs' end
  end.

Lemma enc_fields_shape fs : forall vs, gfields_ok gok fs = true -> wfg_fields wfg fs vs = true ->
  enc_fields enc (erase_fields fs) vs = [] \/
  exists n' opt' g' body' rest',
    In (Some n', opt', g') (gfirst fs) /\ gtag_ok n' = true /\ body' <> [] /\
    enc_fields enc (erase_fields fs) vs = tlv (ident 2 true n') body' ++ rest'.
Proof.
  induction fs as [|[[tag opt] g] fs IH]; intros vs Hok Hwf.
  - left. destruct vs; reflexivity.
  - destruct vs as [|o vs]; [discriminate|]. destruct tag as [n|]; [|discriminate].
    apply gfields_ok_inv in Hok. destruct Hok as (Hok & H2 & H1 & H0 & H).
    rewrite wfg_fields_cons in Hwf. apply andb_true_iff in Hwf. destruct Hwf as [Hw1 Hw2].
    rewrite erase_fields_cons, enc_fields_cons. cbn [gfirst]. destruct o as [v|].
    + right. exists n, opt, g, (enc (erase g) v), (enc_fields enc (erase_fields fs) vs).
      split; [left; reflexivity|]. split; [exact Hok|]. split; [apply enc_nonempty, Hw1 | reflexivity].
    + subst opt. cbn [app]. destruct (IH vs H Hw2) as [E|(n' & o' & g' & b' & r' & Hin & Hn & Hb & E)]; [left; exact E|].
      right. exists n', o', g', b', r'. split; [right; exact Hin | auto].
Qed.

Lemma enc_fields_nonempty fs : forall vs, fs <> [] -> ends_mand fs = true -> wfg_fields wfg fs vs = true ->
  enc_fields enc (erase_fields fs) vs <> [].
Proof.
  induction fs as [|[[tag opt] g] fs IH]; intros vs Hne He Hwf; [contradiction|].
  destruct vs as [|o vs]; [discriminate|].
  rewrite wfg_fields_cons in Hwf. apply andb_true_iff in Hwf. destruct Hwf as [Hw1 Hw2].
  rewrite erase_fields_cons, enc_fields_cons. cbn [ends_mand] in He. destruct fs as [|f fs].
  - destruct o as [v|]; [|subst opt; discriminate].
    apply app_nonempty_l, wrap_nonempty, Hw1.
  - specialize (IH vs ltac:(discriminate) He Hw2). intros E. apply app_eq_nil in E. tauto.
Qed.

Lemma gfield_absent fuel n g b : g <> GRaw ->
  (b = [] \/ exists n' body' rest', n' <> n /\ gtag_ok n' = true /\ body' <> [] /\ zlen body' < 2 ^ 31 /\
                                    b = tlv (ident 2 true n') body' ++ rest') ->
  gfield_dec (D fuel) 2 (Some n) true g b = Some (None, b).
Proof.
  intros Hnr [->|(n' & body' & rest' & Hne & Hn' & Hb & Hl & ->)]; [reflexivity|].
  rewrite gfield_dec_tlv by first [assumption | lia]. replace (n' =? n) with false by lia. rewrite andb_false_r. reflexivity.
Qed.

Lemma gfields_enc fuel fs :
  Forall (fun f : gfield => gok (snd f) = true -> snd f <> GRaw -> grt (snd f)) fs ->
  gfields_ok gok fs = true ->
  forall vs rest, wfg_fields wfg fs vs = true -> fits31 fuel (enc_fields enc (erase_fields fs) vs) ->
  (rest = [] \/ ends_mand fs = true) ->
  gfields (D fuel) fs (enc_fields enc (erase_fields fs) vs ++ rest) = Some (vs, rest).
Proof.
  induction 1 as [|[[tag opt] g] fs Hrt _ IH]; intros Hok vs rest Hwf Hfit Hrest.
  - destruct vs; [reflexivity | discriminate].
  - destruct vs as [|o vs]; [discriminate|]. destruct tag as [n|]; [|discriminate].
    apply gfields_ok_inv in Hok. destruct Hok as (Hok & H2 & H1 & H0 & H).
    rewrite wfg_fields_cons in Hwf. apply andb_true_iff in Hwf. destruct Hwf as [Hw1 Hw2].
    cbn [snd] in Hrt. specialize (Hrt H2).
    rewrite erase_fields_cons, enc_fields_cons in *. rewrite gfields_cons.
    assert (Hrest' : rest = [] \/ ends_mand fs = true).
    { destruct Hrest as [->|He]; [left; reflexivity|]. cbn [ends_mand] in He. destruct fs; [right; reflexivity | right; exact He]. }
    destruct o as [v|].
    + cbn [wrap_tag] in *. rewrite <- app_assoc.
      rewrite gfield_explicit; auto; [|eapply fits_app_l, Hfit].
      rewrite IH; auto. eapply fits_app_r, Hfit.
    + subst opt. cbn [app] in *.
      assert (Hnr : g <> GRaw) by (intros ->; discriminate).
      rewrite gfield_absent; [rewrite IH; auto| exact Hnr |].
      destruct (enc_fields_shape fs vs H Hw2) as [E|(n' & o' & g' & b' & r' & Hin & Hn' & Hb & E)].
      * rewrite E in *. cbn [app]. destruct Hrest as [->|He]; [left; reflexivity|].
        exfalso. cbn [ends_mand] in He. destruct fs as [|f fs]; [discriminate|].
        apply (enc_fields_nonempty (f :: fs) vs); auto. discriminate.
      * right. exists n', b', (r' ++ rest). rewrite E, <- app_assoc.
        rewrite forallb_forall in H0. specialize (H0 _ Hin). cbn [gids_distinct] in H0.
        repeat split; auto; [lia|].
        assert (F : fits31 fuel (tlv (ident 2 true n') b')) by (rewrite E in Hfit; eapply fits_app_l, Hfit).
        apply fits31_tlv in F. apply F.
Qed.

Lemma gelems_cons dec1 n b : b <> [] ->
  gelems dec1 (S n) b =
  match dec1 b with
  | Some (Some v, r) => match gelems dec1 n r with Some vs => Some (v :: vs) | None => None end
  | _ => None
  end.
Proof. destruct b; [congruence | reflexivity]. Qed.

Lemma gelems_enc fuel e : e <> GRaw -> grt e -> forall vs (n : nat),
  Forall (fun v => wfg e v = true) vs -> fits31 fuel (flat_map (enc (erase e)) vs) ->
  zlen (flat_map (enc (erase e)) vs) <= Z.of_nat n ->
  gelems (gfield_dec (D fuel) 2 None false e) n (flat_map (enc (erase e)) vs) = Some vs.
Proof.
  intros Hnr Hrt vs. induction vs as [|v vs IH]; intros n Hwf Hfit Hn.
  - destruct n; reflexivity.
  - pose proof (Forall_inv Hwf) as Hv. pose proof (Forall_inv_tail Hwf) as Hvs. cbn [flat_map] in *.
    pose proof (enc_nonempty e v Hv) as Hne. pose proof (zlen_pos _ Hne) as Hl.
    apply (app_nonempty_l _ (flat_map (enc (erase e)) vs)) in Hne.
    rewrite zlen_app in Hn. pose proof (zlen_nonneg (flat_map (enc (erase e)) vs)). destruct n as [|n]; [lia|].
    rewrite gelems_cons, gfield_dec_nonraw by assumption.
    rewrite Hrt by (auto; eapply fits_app_l, Hfit).
    rewrite IH; [reflexivity | exact Hvs | eapply fits_app_r, Hfit | lia].
Qed.

Lemma gelem_tlv fuel g opt orig id body rest v :
  id mod 32 <> 31 -> zlen body < 2 ^ 31 -> tag_match g (hdr_id id (zlen body)) = true ->
  gdec g fuel (hdr_id id (zlen body)) body = Some v ->
  gelem (D fuel) g opt orig (tlv id body ++ rest) = Some (Some v, rest).
Proof.
  intros Hid Hb Ht Hd. unfold gelem. rewrite ghdr_tlv by assumption. rewrite Ht.
  unfold hdr_id at 1. cbn [h_len]. rewrite splitz_app. unfold D. rewrite Hd. reflexivity.
Qed.

Theorem gdec_enc : forall g, gok g = true -> g <> GRaw -> grt g.
Proof.
  induction g using gty_ind'; intros Hok Hnr v fuel rest opt orig Hwf Hfit; [| | | | | | |contradiction].
  1-7: destruct v; cbn [wfg] in Hwf; try discriminate.
  all: try rewrite erase_struct in *; cbn [erase enc] in *; pose proof (fits31_tlv _ _ _ Hfit) as Hf.
  - (* int *) apply gelem_tlv; [lia | apply Hf | reflexivity |]. cbn [gdec]. unfold gint.
    rewrite dec_int_enc_int, Hwf. reflexivity.
  - (* []byte *) apply gelem_tlv; [lia | apply Hf | reflexivity | reflexivity].
  - (* string *) apply gelem_tlv; [lia | apply Hf | reflexivity | reflexivity].
  - (* time *) apply gelem_tlv; [lia | apply Hf | reflexivity |]. cbn [gdec].
    change (h_tag (hdr_id 24 (zlen (enc_time secs)))) with 24. unfold gtime. cbn [Z.eqb Pos.eqb].
    unfold ggentime. rewrite dec_time_enc_time by exact Hwf. reflexivity.
  - (* BitString *) apply gelem_tlv; [lia | apply Hf | reflexivity |]. cbn [gdec]. unfold enc_bits, gbits.
    rewrite Hwf. reflexivity.
  - (* struct *) unfold id_seq in *.
    apply gelem_tlv; [lia | apply Hf | reflexivity |]. cbn [gdec]. fold (D fuel).
    rewrite <- (app_nil_r (enc_fields enc (erase_fields fs) fs0)).
    rewrite (gfields_enc fuel fs); auto.
  - (* slice *) unfold id_seq in *. cbn [gok] in Hok. apply andb_true_iff in Hok. destruct Hok as [Hok He].
    assert (Hne : g <> GRaw) by (intros ->; discriminate).
    apply gelem_tlv; [lia | apply Hf | reflexivity |]. cbn [gdec]. fold (D fuel).
    rewrite (gelems_enc fuel g Hne (IHg Hok Hne)); [reflexivity | apply Forall_forallb, Hwf | exact Hf | apply Hf].
Qed.

(* asn1.UnmarshalWithParams(b, &v, "application,explicit,tag:n") on the DER of [APPLICATION n] followed by anything *)
Theorem unmarshal_app_enc n g v rest :
  gtag_ok n = true -> gok g = true -> g <> GRaw -> wfg g v = true ->
  zlen (enc (TApp n (erase g)) v) < 2 ^ 31 ->
  unmarshal_app n g (enc (TApp n (erase g)) v ++ rest) = Some v.
Proof.
  intros Hn Hok Hnr Hwf Hlen. unfold unmarshal_app. cbn [enc] in *.
  fold (D (S (length (tlv (ident 1 true n) (enc (erase g) v) ++ rest)))).
  rewrite gfield_explicit; auto.
  - intros _. apply gdec_enc; assumption.
  - split; [exact Hlen|]. unfold zlen. rewrite app_length. lia.
Qed.

(* a struct that ends with an untagged OPTIONAL struct (messages.Ticket with its DecryptedEncPart) *)
Lemma gfields_app dec fs1 : forall fs2 b,
  gfields dec (fs1 ++ fs2) b =
  match gfields dec fs1 b with
  | Some (vs1, r) => match gfields dec fs2 r with Some (vs2, r') => Some (vs1 ++ vs2, r') | None => None end
  | None => None
  end.
Proof.
  induction fs1 as [|[[tag opt] g] fs1 IH]; intros fs2 b.
  - cbn [app]. change (gfields dec [] b) with (Some (@nil (option value), b)). cbn iota beta.
    destruct (gfields dec fs2 b) as [[vs2 r']|]; reflexivity.
  - cbn [app]. rewrite !gfields_cons. destruct (gfield_dec dec 2 tag opt g b) as [[o r]|]; [|reflexivity].
    rewrite IH. destruct (gfields dec fs1 r) as [[vs1 r1]|]; [|reflexivity].
    destruct (gfields dec fs2 r1) as [[vs2 r2]|]; reflexivity.
Qed.

Definition trailer_bytes (gt : gty) (o : option value) : bytes :=
  match o with Some tv => enc (erase gt) tv | None => [] end.

Theorem grt_trailer fs gt vs o fuel rest opt orig :
  gfields_ok gok fs = true -> ends_mand fs = true -> gok gt = true -> gt <> GRaw ->
  wfg_fields wfg fs vs = true -> (match o with Some tv => wfg gt tv = true | None => True end) ->
  fits31 fuel (tlv id_seq (enc_fields enc (erase_fields fs) vs ++ trailer_bytes gt o)) ->
  gelem (D fuel) (GStruct (fs ++ [(None, true, gt)])) opt orig
        (tlv id_seq (enc_fields enc (erase_fields fs) vs ++ trailer_bytes gt o) ++ rest)
  = Some (Some (VSeq (vs ++ [o])), rest).
Proof.
  intros Hok He Hgt Hnr Hwf Ho Hfit. pose proof (fits31_tlv _ _ _ Hfit) as Hf. unfold id_seq in *.
  apply gelem_tlv; [lia | apply Hf | reflexivity |]. cbn [gdec]. fold (D fuel).
  rewrite gfields_app.
  rewrite (gfields_enc fuel fs); auto; [| |eapply fits_app_l, Hf].
  2: { apply Forall_forall. intros f _ H1 H2. apply gdec_enc; assumption. }
  rewrite gfields_cons. destruct o as [tv|]; cbn [trailer_bytes] in *.
  - assert (G : gfield_dec (D fuel) 2 None true gt (enc (erase gt) tv) =
                gelem (D fuel) gt true (enc (erase gt) tv) (enc (erase gt) tv)).
    { apply gfield_dec_nonraw; [exact Hnr | apply enc_nonempty, Ho]. }
    rewrite G. rewrite <- (app_nil_r (enc (erase gt) tv)) at 2.
    rewrite (gdec_enc gt Hgt Hnr) by (auto; eapply fits_app_r, Hf). reflexivity.
  - reflexivity.
Qed.
