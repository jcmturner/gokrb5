(* The client accepts a KDC reply only if it answers the request it sent. *)
From Gokrb5.lib Require Import Bytes JV.
From Gokrb5.model Require Import Keytab Crypto PAData Replay APReq KDCRep.
From Gokrb5.proofs Require Import ReplayProofs APReqProofs.

Lemma addrs_contained (l req : list (Z * bytes)) :
  forallb (fun a => existsb (addr_eqb a) req) l = true <-> (forall a, In a l -> In a req).
Proof.
  rewrite forallb_forall. split; intros H a Ha; apply existsb_addr, H, Ha.
Qed.

Lemma start_or_auth_false skew t (start : option Z) auth :
  (match start with Some s => skew <? Z.abs (t - us s) | None => true end) && (skew <? Z.abs (t - us auth)) = false <->
  (exists s, start = Some s /\ Z.abs (t - us s) <= skew) \/ Z.abs (t - us auth) <= skew.
Proof.
  rewrite andb_false_iff, !Z.ltb_ge. destruct start as [s|].
  - rewrite Z.ltb_ge. split; intros [H|H]; auto; [left; eauto | destruct H as (s' & E & H); injection E as <-; auto].
  - split; intros [H|H]; auto; [discriminate | destruct H as (s' & E & _); discriminate].
Qed.

Section Spec.
  Variable dec_enc : bytes -> option enc_rep.

  (* AS: specification of acceptance *)
  Definition as_valid (skew : Z) (c : creds) (rq : kdc_req) (rp : kdc_rep) (t : Z) : Prop :=
    exists kv ktype pt er,
      rp_cname rp = rq_cname rq /\ rp_crealm rp = rq_realm rq /\
      as_key c rp = Ok (kv, ktype) /\                       (* the client's own long-term key ... *)
      decrypt ktype kv 3 (rp_cipher rp) = Ok pt /\          (* ... decrypts the encrypted part with usage 3 *)
      dec_enc pt = Some er /\
      er_nonce er = rq_nonce rq /\ er_sname er = rq_sname rq /\ er_srealm er = rq_realm rq /\
      (rq_addrs rq = [] \/ addrs_equal (er_caddr er) (rq_addrs rq) = true) /\
      Z.abs (t - us (er_authtime er)) <= skew /\
      flag_enc_pa_rep (er_flags er) = false.

  Theorem asrep_accept_iff skew c rq rp t :
    asrep_verify dec_enc skew c rq rp t = Ok true <-> as_valid skew c rq rp t.
  Proof.
    unfold asrep_verify, as_valid. split.
    - destruct (names_eqb (rp_cname rp) (rq_cname rq)) eqn:E1; cbn [negb]; [|discriminate].
      destruct (beq_bytes (rp_crealm rp) (rq_realm rq)) eqn:E2; cbn [negb]; [|discriminate].
      destruct (as_key c rp) as [[kv ktype]| |] eqn:EK; try discriminate.
      destruct (decrypt ktype kv 3 (rp_cipher rp)) as [pt| |] eqn:ED; try discriminate.
      destruct (dec_enc pt) as [er|] eqn:EE; try discriminate.
      destruct (Z.eqb_spec (er_nonce er) (rq_nonce rq)) as [E3|]; cbn [negb]; [|discriminate].
      destruct (names_eqb (er_sname er) (rq_sname rq)) eqn:E4; cbn [negb]; [|discriminate].
      destruct (beq_bytes (er_srealm er) (rq_realm rq)) eqn:E5; cbn [negb]; [|discriminate].
      destruct (negb (length (rq_addrs rq) =? 0)%nat && negb (addrs_equal (er_caddr er) (rq_addrs rq))) eqn:E6; [discriminate|].
      destruct (skew <? Z.abs (t - us (er_authtime er))) eqn:E7; [discriminate|].
      destruct (flag_enc_pa_rep (er_flags er)) eqn:E8; [discriminate|]. intros _.
      apply names_eqb_eq in E1, E4. apply beq_bytes_eq in E2, E5.
      apply unless_empty_false in E6. apply Z.ltb_ge in E7.
      exists kv, ktype, pt, er. repeat split; assumption.
    - intros (kv & ktype & pt & er & H1 & H2 & EK & ED & EE & H3 & H4 & H5 & H6 & H7 & H8).
      rewrite (proj2 (names_eqb_eq _ _) H1), (proj2 (beq_bytes_eq _ _) H2), EK, ED, EE,
        (proj2 (Z.eqb_eq _ _) H3), (proj2 (names_eqb_eq _ _) H4), (proj2 (beq_bytes_eq _ _) H5),
        (proj2 (unless_empty_false _ _) H6), (proj2 (Z.ltb_ge _ _) H7), H8.
      reflexivity.
  Qed.

  (* TGS: specification of acceptance.  The server name is not compared: TGSRep.Verify has those tests commented out
     (messages/KDCRep.go). *)
  Definition tgs_valid (skew : Z) (stype : Z) (skey : bytes) (rq : kdc_req) (rp : kdc_rep) (t : Z) : Prop :=
    exists pt er,
      decrypt stype skey 8 (rp_cipher rp) = Ok pt /\        (* the TGT session key decrypts it with usage 8 *)
      dec_enc pt = Some er /\
      rp_cname rp = rq_cname rq /\ rp_tkt_realm rp = rq_realm rq /\
      er_nonce er = rq_nonce rq /\ er_srealm er = rq_realm rq /\
      (forall a, In a (er_caddr er) -> In a (rq_addrs rq)) /\
      ((exists s, er_start er = Some s /\ Z.abs (t - us s) <= skew) \/ Z.abs (t - us (er_authtime er)) <= skew).

  Theorem tgsrep_accept_iff skew stype skey rq rp t :
    tgsrep_verify dec_enc skew stype skey rq rp t = Ok true <-> tgs_valid skew stype skey rq rp t.
  Proof.
    unfold tgsrep_verify, tgs_valid. split.
    - destruct (decrypt stype skey 8 (rp_cipher rp)) as [pt| |] eqn:ED; try discriminate.
      destruct (dec_enc pt) as [er|] eqn:EE; try discriminate.
      destruct (names_eqb (rp_cname rp) (rq_cname rq)) eqn:E1; cbn [negb]; [|discriminate].
      destruct (beq_bytes (rp_tkt_realm rp) (rq_realm rq)) eqn:E2; cbn [negb]; [|discriminate].
      destruct (Z.eqb_spec (er_nonce er) (rq_nonce rq)) as [E3|]; cbn [negb]; [|discriminate].
      destruct (beq_bytes (er_srealm er) (rq_realm rq)) eqn:E5; cbn [negb]; [|discriminate].
      destruct (forallb (fun a => existsb (addr_eqb a) (rq_addrs rq)) (er_caddr er)) eqn:E6; cbn [negb]; [|discriminate].
      destruct (_ && _) eqn:E7; [discriminate|]. intros _.
      apply names_eqb_eq in E1. apply beq_bytes_eq in E2, E5. apply start_or_auth_false in E7.
      exists pt, er. repeat split; try assumption. apply addrs_contained, E6.
    - intros (pt & er & ED & EE & H1 & H2 & H3 & H5 & H6 & H7).
      rewrite ED, EE, (proj2 (names_eqb_eq _ _) H1), (proj2 (beq_bytes_eq _ _) H2), (proj2 (Z.eqb_eq _ _) H3),
        (proj2 (beq_bytes_eq _ _) H5), (proj2 (addrs_contained _ _) H6), (proj2 (start_or_auth_false _ _ _ _) H7).
      reflexivity.
  Qed.

  (* a reply to an earlier request (another nonce) is rejected *)
  Corollary stale_reply_rejected skew c rq rq' rp t pt er kv ktype :
    as_key c rp = Ok (kv, ktype) -> decrypt ktype kv 3 (rp_cipher rp) = Ok pt -> dec_enc pt = Some er ->
    er_nonce er = rq_nonce rq -> rq_nonce rq' <> rq_nonce rq ->
    asrep_verify dec_enc skew c rq' rp t <> Ok true.
  Proof.
    intros EK ED EE Hn Hne H. apply asrep_accept_iff in H.
    destruct H as (kv' & kt' & pt' & er' & _ & _ & EK' & ED' & EE' & Hn' & _).
    rewrite EK in EK'. injection EK' as <- <-. rewrite ED in ED'. injection ED' as <-.
    rewrite EE in EE'. injection EE' as <-. congruence.
  Qed.
End Spec.

Lemma asrep_verify_ext d d' skew c rq rp t :
  (forall kv kt pt, as_key c rp = Ok (kv, kt) -> decrypt kt kv 3 (rp_cipher rp) = Ok pt -> d pt = d' pt) ->
  asrep_verify d skew c rq rp t = asrep_verify d' skew c rq rp t.
Proof.
  intros Hd. unfold asrep_verify.
  destruct (negb (names_eqb (rp_cname rp) (rq_cname rq))); [reflexivity|].
  destruct (negb (beq_bytes (rp_crealm rp) (rq_realm rq))); [reflexivity|].
  destruct (as_key c rp) as [[kv kt]| |] eqn:EK; try reflexivity.
  destruct (decrypt kt kv 3 (rp_cipher rp)) as [pt| |] eqn:ED; try reflexivity.
  rewrite (Hd kv kt pt eq_refl ED). reflexivity.
Qed.

Lemma tgsrep_verify_ext d d' skew stype skey rq rp t :
  (forall pt, decrypt stype skey 8 (rp_cipher rp) = Ok pt -> d pt = d' pt) ->
  tgsrep_verify d skew stype skey rq rp t = tgsrep_verify d' skew stype skey rq rp t.
Proof.
  intros Hd. unfold tgsrep_verify.
  destruct (decrypt stype skey 8 (rp_cipher rp)) as [pt| |] eqn:ED; try reflexivity.
  rewrite (Hd pt eq_refl). reflexivity.
Qed.
