(* Ciphertext lengths of the RFC profiles: what a peer can rely on when framing messages. *)
From Gokrb5.lib Require Import Bytes JV.
From Gokrb5.prim Require CBC HMAC RC4.
From Gokrb5.model Require Import Crypto.
From Gokrb5.proofs Require Import CTSProofs CryptoRoundTrip.
Import CBC.

(* AES profiles (RFC 3962 / 8009): confounder + message + truncated MAC, no padding (ciphertext stealing) *)
Theorem aes_ciphertext_length et key usage conf msg ct :
  (et_family et = Some FAesSha1 \/ et_family et = Some FAesSha2) -> length conf = 16%nat ->
  encrypt_with et key usage conf msg = Ok ct ->
  length ct = (16 + length msg + mac_len et)%nat.
Proof.
  intros Hf Hc E. destruct (encrypt_with_aes _ _ _ _ _ _ Hf E) as (_ & ke & ih & _ & Ei & ->).
  assert (Lpt : (16 <= length (conf ++ msg))%nat) by (rewrite app_length; lia).
  rewrite app_length, (integrity_hash_length _ _ _ _ _ Ei).
  rewrite (cts_encrypt_length (aes_ecb ke) (aes_ecb_length ke) _ Lpt), app_length. lia.
Qed.

(* RC4 (RFC 4757): 16-byte checksum + confounder + message *)
Theorem rc4_ciphertext_length key usage conf msg ct :
  encrypt_with 23 key usage conf msg = Ok ct -> length ct = (16 + length conf + length msg)%nat.
Proof.
  rewrite encrypt_with_rc4, rc4_encrypt_ok. intros E. apply ok_inj in E. subst ct. cbv zeta.
  rewrite app_length, HMAC.hmac_md5_length, RC4.rc4_length, app_length. lia.
Qed.

(* DES3 (RFC 3961): confounder + message padded with zeros to the 8-byte block + 20-byte MAC *)
Theorem des3_ciphertext_length key usage conf msg ct :
  encrypt_with 16 key usage conf msg = Ok ct ->
  length ct = (length (conf ++ msg) + (8 - length (conf ++ msg) mod 8) mod 8 + 20)%nat.
Proof.
  intros E. destruct (encrypt_with_des3 _ _ _ _ _ E) as (ke & ih & _ & Ei & ->).
  destruct (zpad_length 8 (conf ++ msg) ltac:(lia)) as (k & Hk & _).
  rewrite app_length, (integrity_hash_length _ _ _ _ _ Ei).
  rewrite (cbc_encrypt_length (des3_ecb ke) 8 (fun b _ => des3_ecb_length ke b) (zeros 8) _ k); [|lia|apply zeros_length|exact Hk].
  unfold zpad. rewrite app_length, zeros_length. reflexivity.
Qed.

(* Key-usage separation starts with the derivation constant: it is injective in the usage number over the whole
   32-bit range and in the key kind (0xAA encryption, 0x55 integrity, 0x99 checksum), so distinct usages or kinds
   never share a constant (what the derived keys then are is HMAC / DK strength). *)
Theorem usage_const_injective u1 o1 u2 o2 :
  0 <= u1 < 2 ^ 32 -> 0 <= u2 < 2 ^ 32 ->
  usage_const u1 o1 = usage_const u2 o2 -> u1 = u2 /\ o1 = o2.
Proof.
  intros H1 H2 E. unfold usage_const in E.
  apply app_inj_tail in E. destruct E as [E Eo]. split; [|exact Eo].
  unfold be_bytes in E. apply (f_equal (@rev Z)) in E. rewrite !rev_involutive in E.
  apply (le_bytes_inj 4); [| |exact E]; change (256 ^ Z.of_nat 4) with (2 ^ 32); assumption.
Qed.

Example usage_const_bits_8_15_matter : usage_const 2 170 <> usage_const 1026 170 /\ usage_const 256 85 <> usage_const 0 85.
Proof. split; intros H; discriminate H. Qed.
