(* Gokrb5.proofs.Krb5ConfValues — the value parsers of krb5.conf: every documented boolean spelling and
   every documented duration format yields the documented value (for all component values in range and
   any surrounding white space), enctype names map to the registered numbers, and values after a final
   marker are ignored. *)
From Coq Require Import String.
From Gokrb5.lib Require Import Bytes GoString.
From Gokrb5.model Require Import Krb5Conf.
Open Scope Z_scope.

Definition all_space (a : bytes) : Prop := forallb is_space a = true.

Definition bool_table : list (bytes * bool) :=
  [ (bs "true", true); (bs "false", false); (bs "yes", true); (bs "no", false);
    (bs "y", true); (bs "n", false); (bs "t", true); (bs "f", false); (bs "1", true); (bs "0", false);
    (bs "True", true); (bs "False", false); (bs "TRUE", true); (bs "FALSE", false); (bs "T", true); (bs "F", false);
    (bs "Yes", true); (bs "No", false); (bs "YES", true); (bs "NO", false); (bs "Y", true); (bs "N", false) ].

Lemma parse_boolean_pad a s b : all_space a -> all_space b -> no_edge_space s ->
  parse_boolean (a ++ s ++ b) = parse_boolean s.
Proof. intros Ha Hb Hs. unfold parse_boolean. now rewrite trim_space_pad, (trim_space_id s). Qed.

(* the table, row by row: a finite fact, decided by evaluation *)
Lemma bool_table_ok : Forall (fun r => no_edge_space (fst r) /\ parse_boolean (fst r) = Ok (snd r)) bool_table.
Proof. unfold bool_table. repeat (constructor; [split; [split; reflexivity|reflexivity]|]). constructor. Qed.

Theorem bool_spellings : forall sp v a b,
  In (sp, v) bool_table -> all_space a -> all_space b -> parse_boolean (a ++ sp ++ b) = Ok v.
Proof.
  intros sp v a b H Ha Hb. pose proof bool_table_ok as T. rewrite Forall_forall in T.
  destruct (T _ H) as [Hn Hp]. now rewrite parse_boolean_pad.
Qed.

Lemma lower_byte_inv c l : 97 <= l <= 122 -> lower_byte c = l -> c = l \/ c = l - 32.
Proof.
  unfold lower_byte. destruct ((65 <=? c) && (c <=? 90)) eqn:E; intros Hl H; [right|left]; lia.
Qed.

(* yes / no / y / n in any mixture of cases *)
Theorem bool_yes_no_any_case : forall s a b,
  all_space a -> all_space b ->
  (to_lower s = bs "yes" \/ to_lower s = bs "y" -> parse_boolean (a ++ s ++ b) = Ok true) /\
  (to_lower s = bs "no" \/ to_lower s = bs "n" -> parse_boolean (a ++ s ++ b) = Ok false).
Proof.
  intros s a b Ha Hb.
  assert (forall l, to_lower s = l -> Forall (fun x => 97 <= x <= 122) l ->
            Forall2 (fun c x => c = x \/ c = x - 32) s l) as K.
  { intros l <- Hf. unfold to_lower in *. induction s as [|c s IH]; cbn in *; constructor.
    - inversion Hf; subst. now apply lower_byte_inv.
    - inversion Hf; subst. now apply IH. }
  split; intros [H|H].
  all: specialize (K _ H ltac:(repeat constructor; cbv; intuition discriminate)); cbn in K.
  all: repeat match goal with
       | K : Forall2 _ _ (_ :: _) |- _ => inversion K; subst; clear K
       | K : Forall2 _ _ [] |- _ => inversion K; subst; clear K
       end.
  all: repeat match goal with H : _ \/ _ |- _ => destruct H end; subst.
  all: rewrite parse_boolean_pad by (assumption || (split; reflexivity)); reflexivity.
Qed.

Example bool_rejected :
  parse_boolean (bs "maybe") = Err invalid /\ parse_boolean (bs "") = Err invalid /\
  parse_boolean (bs "on") = Err invalid /\ parse_boolean (bs "TrUe") = Err invalid.
Proof. repeat split; vm_compute; reflexivity. Qed.

Definition digits (s : bytes) : Prop := s <> [] /\ forallb is_digit s = true.
Definition dval (s : bytes) : Z := digits_val 0 s.

(* the characters of a duration value: digits, ':' and the unit letters h m s; [durd_char] adds the 'd' of
   the day prefix *)
Definition dur_char (c : Z) : bool := is_digit c || (c =? 58) || (c =? 104) || (c =? 109) || (c =? 115).
Definition durd_char (c : Z) : bool := dur_char c || (c =? 100).

Lemma durd_char_range c : durd_char c = true -> 48 <= c <= 58 \/ c = 100 \/ c = 104 \/ c = 109 \/ c = 115.
Proof.
  unfold durd_char, dur_char, is_digit. rewrite !orb_true_iff, andb_true_iff, !Z.leb_le, !Z.eqb_eq. lia.
Qed.

Lemma durd_not_space c : durd_char c = true -> is_space c = false.
Proof.
  intros H. apply durd_char_range in H. unfold is_space.
  repeat (apply orb_false_iff; split); apply Z.eqb_neq; lia.
Qed.

Lemma durd_ascii c : durd_char c = true -> (0 <=? c) && (c <? 128) = true.
Proof.
  intros H. apply durd_char_range in H. apply andb_true_iff; split; [apply Z.leb_le|apply Z.ltb_lt]; lia.
Qed.

Lemma dur_durd s : forallb dur_char s = true -> forallb durd_char s = true.
Proof. apply forallb_imp. intros x H. unfold durd_char. now rewrite H. Qed.

Lemma digits_dur s : forallb is_digit s = true -> forallb dur_char s = true.
Proof. apply forallb_imp. intros x H. unfold dur_char. now rewrite H. Qed.

Lemma digit_neqb c d : is_digit c = true -> is_digit d = false -> (c =? d) = false.
Proof. intros Hc Hd. destruct (Z.eqb_spec c d); [subst; congruence|reflexivity]. Qed.

Lemma dur_pad s a b : forallb durd_char s = true -> all_space a -> all_space b ->
  remove_byte 32 (trim_space (a ++ s ++ b)) = s.
Proof.
  intros Hs Ha Hb. rewrite trim_space_pad by (assumption || exact (no_edge_class _ _ durd_not_space Hs)).
  apply remove_byte_none, (forallb_not_in durd_char); [reflexivity|exact Hs].
Qed.

Lemma dur_no_d s : forallb dur_char s = true -> contains_byte 100 s = false.
Proof. intros Hs. apply contains_byte_false, (forallb_not_in dur_char); [reflexivity|exact Hs]. Qed.

Lemma go_parse_duration_dur s : forallb durd_char s = true -> s <> [] -> s <> [48] ->
  go_parse_duration s = pd_loop (length s) 0 s.
Proof.
  intros Hs Hne H0. unfold go_parse_duration.
  assert (is_ascii s = true) as -> by (exact (forallb_imp _ _ _ durd_ascii Hs)).
  assert (contains_byte 46 s = false) as ->
    by (apply contains_byte_false, (forallb_not_in durd_char); [reflexivity|exact Hs]).
  rewrite !has_prefix1_none by (apply (forallb_not_in durd_char); [reflexivity|exact Hs]).
  cbn [negb orb]. destruct (beq_bytes s [48]) eqn:E; [apply beq_bytes_eq in E; congruence|].
  destruct s; [congruence|reflexivity].
Qed.

Lemma digits_val_app a b acc : digits_val acc (a ++ b) = digits_val (digits_val acc a) b.
Proof. revert acc; induction a as [|c a IH]; intros acc; cbn; [reflexivity|apply IH]. Qed.

Lemma digits_val_lower s : forallb is_digit s = true -> forall acc, 0 <= acc -> acc <= digits_val acc s.
Proof.
  induction s as [|c r IH]; intros H acc Ha; cbn in *; [lia|].
  apply andb_true_iff in H. destruct H as [Hc Hr]. unfold is_digit in Hc. rewrite andb_true_iff, !Z.leb_le in Hc.
  specialize (IH Hr (acc * 10 + (c - 48)) ltac:(lia)). lia.
Qed.

(* leadingInt on digits followed by a non-digit (or nothing): the value, no overflow below 2^62 *)
Lemma leading_int_digits ds : forallb is_digit ds = true -> forall x rest,
  0 <= x -> digits_val x ds < 2 ^ 62 ->
  match rest with [] => True | c :: _ => is_digit c = false end ->
  leading_int x (ds ++ rest) = Some (digits_val x ds, rest).
Proof.
  induction ds as [|c r IH]; intros H x rest Hx Hb Hrest.
  - cbn [app leading_int digits_val]. destruct rest as [|c rest]; [reflexivity|]. cbn [leading_int]. now rewrite Hrest.
  - cbn [forallb] in H. apply andb_true_iff in H. destruct H as [Hc Hr]. cbn [app leading_int digits_val]. rewrite Hc.
    cbn [digits_val] in Hb.
    assert (Hd : 0 <= c - 48 <= 9) by (unfold is_digit in Hc; rewrite andb_true_iff, !Z.leb_le in Hc; lia).
    pose proof (digits_val_lower r Hr (x * 10 + (c - 48)) ltac:(lia)) as L.
    assert (2 ^ 63 / 10 = 922337203685477580) as -> by reflexivity.
    assert (2 ^ 62 = 4611686018427387904) as E62 by reflexivity.
    assert (2 ^ 63 = 9223372036854775808) as E63 by reflexivity.
    destruct (Z.gtb_spec x 922337203685477580); [lia|].
    rewrite E63. destruct (Z.gtb_spec (x * 10 + (c - 48)) 9223372036854775808); [lia|].
    apply IH; auto; lia.
Qed.

Lemma pd_loop_no_unit ds rest f :
  digits ds -> dval ds < 2 ^ 62 ->
  match rest with [] => True | c :: _ => is_digit c = false end ->
  match take_until is_digit rest with [] => True | u => unit_ns u = None end ->
  pd_loop (S f) 0 (ds ++ rest) = DErr.
Proof.
  intros [Hne Hd] Hv Hrest Hu. destruct ds as [|c r]; [congruence|]. cbn [app pd_loop].
  pose proof Hd as Hd'. cbn [forallb] in Hd. apply andb_true_iff in Hd. destruct Hd as [Hdc _].
  rewrite Hdc. cbn [negb]. change (c :: r ++ rest) with ((c :: r) ++ rest).
  rewrite (leading_int_digits (c :: r) Hd' 0 rest ltac:(lia) Hv Hrest).
  destruct (take_until is_digit rest); [reflexivity|]. now rewrite Hu.
Qed.

Theorem duration_seconds : forall ds a b, digits ds -> all_space a -> all_space b ->
  0 < dval ds < 2 ^ 32 ->
  parse_duration (a ++ ds ++ b) = Ok (dval ds * second_ns).
Proof.
  intros ds a b [Hne Hd] Ha Hb Hv. unfold parse_duration.
  pose proof (digits_dur _ Hd) as Hc.
  rewrite (dur_pad ds a b (dur_durd _ Hc) Ha Hb), (dur_no_d ds Hc).
  assert (ds <> [48]) as H0 by (intros ->; unfold dval in Hv; cbn [digits_val] in Hv; lia).
  rewrite (go_parse_duration_dur ds (dur_durd _ Hc) Hne H0).
  assert (2 ^ 32 < 2 ^ 62) by reflexivity.
  assert (pd_loop (length ds) 0 ds = DErr) as ->.
  { destruct ds as [|c r]; [congruence|]. cbn [length]. rewrite <- (app_nil_r (c :: r)).
    apply pd_loop_no_unit; [split; assumption|unfold dval in *; lia|exact I|exact I]. }
  unfold parse_uint. destruct ds as [|c r]; [congruence|]. rewrite Hd.
  fold (dval (c :: r)). destruct (Z.ltb_spec (dval (c :: r)) (2 ^ 32)); [|lia].
  destruct (Z.ltb_spec 0 (dval (c :: r))); [reflexivity|lia].
Qed.

Lemma digits_no_colon ds : forallb is_digit ds = true -> ~ In 58 ds.
Proof.
  apply (forallb_not_in is_digit). reflexivity.
Qed.

Lemma parse_int16_digits ds : digits ds -> dval ds < 2 ^ 15 -> parse_int 16 ds = Some (dval ds).
Proof.
  intros [Hne Hd] Hv. unfold parse_int. destruct ds as [|c r]; [congruence|].
  cbn [forallb] in Hd. pose proof Hd as Hd'. apply andb_true_iff in Hd. destruct Hd as [Hc Hr].
  rewrite !(digit_neqb c) by (exact Hc || reflexivity).
  cbn [forallb]. rewrite Hd'. fold (dval (c :: r)).
  change (2 ^ (16 - 1)) with (2 ^ 15). destruct (Z.ltb_spec (dval (c :: r)) (2 ^ 15)); [reflexivity|lia].
Qed.

(* the h:m:s text is not a Go duration and not a number, so the colon branch is reached *)
Lemma colon_text_falls_through s ds rest :
  digits ds -> dval ds < 2 ^ 62 -> s = ds ++ 58 :: rest -> forallb dur_char s = true ->
  go_parse_duration s = DErr /\
  (match parse_uint 32 s with Some v => if 0 <? v then Some v else None | None => None end) = None.
Proof.
  intros [Hne Hd] Hv -> Hc. split.
  - rewrite go_parse_duration_dur; [|exact (dur_durd _ Hc)|destruct ds; discriminate|].
    2:{ destruct ds as [|c [|c2 r]]; [congruence| |]; cbn; discriminate. }
    rewrite app_length. cbn [length]. rewrite Nat.add_succ_r.
    apply pd_loop_no_unit; [split; assumption|exact Hv|reflexivity|].
    (* the unit would start with ':' *)
    cbn. destruct (take_until is_digit rest); reflexivity.
  - unfold parse_uint. destruct (ds ++ 58 :: rest) eqn:E; [reflexivity|]. rewrite <- E.
    rewrite forallb_app. cbn [forallb]. change (is_digit 58) with false. cbn [andb].
    now rewrite andb_false_r.
Qed.

Lemma duration_colon dh dm (osec : option bytes) a b :
  digits dh -> digits dm -> match osec with Some ds => digits ds /\ dval ds < 2 ^ 15 | None => True end ->
  all_space a -> all_space b -> dval dh < 2 ^ 15 -> dval dm < 2 ^ 15 ->
  parse_duration (a ++ (dh ++ 58 :: match osec with Some ds => dm ++ 58 :: ds | None => dm end) ++ b)
  = Ok (match osec with
        | Some ds => dval dh * hour_ns + dval dm * minute_ns + dval ds * second_ns
        | None => dval dh * hour_ns + dval dm * minute_ns
        end).
Proof.
  intros Hh Hm Hs Ha Hb Vh Vm.
  set (rest := match osec with Some ds => dm ++ 58 :: ds | None => dm end).
  set (s := dh ++ 58 :: rest).
  assert (Hc : forallb dur_char s = true).
  { unfold s, rest. rewrite forallb_app. cbn [forallb]. rewrite (digits_dur _ (proj2 Hh)).
    destruct osec as [ds|]; [|now rewrite (digits_dur _ (proj2 Hm))].
    rewrite forallb_app. cbn [forallb]. now rewrite (digits_dur _ (proj2 Hm)), (digits_dur _ (proj2 (proj1 Hs))). }
  unfold parse_duration. rewrite (dur_pad s a b (dur_durd _ Hc) Ha Hb), (dur_no_d s Hc).
  assert (2 ^ 15 < 2 ^ 62) by reflexivity.
  destruct (colon_text_falls_through s dh rest Hh ltac:(lia) eq_refl Hc) as [-> ->].
  assert (contains_byte 58 s = true) as ->.
  { apply contains_byte_in. unfold s. apply in_or_app. right. left. reflexivity. }
  unfold s, rest. rewrite split_byte_app by (apply digits_no_colon, Hh).
  destruct osec as [ds|].
  - destruct Hs as [Hs Vs]. rewrite split_byte_two by (apply digits_no_colon; (apply Hm || apply Hs)).
    cbn [zlen length Z.of_nat Pos.of_succ_nat Pos.succ Z.ltb Z.compare Pos.compare Pos.compare_cont orb map_res].
    rewrite !parse_int16_digits by assumption. cbn. reflexivity.
  - rewrite split_byte_no by (apply digits_no_colon, Hm).
    cbn [zlen length Z.of_nat Pos.of_succ_nat Pos.succ Z.ltb Z.compare Pos.compare Pos.compare_cont orb map_res].
    rewrite !parse_int16_digits by assumption. cbn. reflexivity.
Qed.

Theorem duration_h_m_s : forall dh dm dsec a b,
  digits dh -> digits dm -> digits dsec -> all_space a -> all_space b ->
  dval dh < 2 ^ 15 -> dval dm < 2 ^ 15 -> dval dsec < 2 ^ 15 ->
  parse_duration (a ++ (dh ++ 58 :: dm ++ 58 :: dsec) ++ b)
  = Ok (dval dh * hour_ns + dval dm * minute_ns + dval dsec * second_ns).
Proof.
  intros dh dm dsec a b Hh Hm Hs Ha Hb Vh Vm Vs.
  exact (duration_colon dh dm (Some dsec) a b Hh Hm (conj Hs Vs) Ha Hb Vh Vm).
Qed.

Theorem duration_h_m : forall dh dm a b,
  digits dh -> digits dm -> all_space a -> all_space b ->
  dval dh < 2 ^ 15 -> dval dm < 2 ^ 15 ->
  parse_duration (a ++ (dh ++ 58 :: dm) ++ b) = Ok (dval dh * hour_ns + dval dm * minute_ns).
Proof.
  intros dh dm a b Hh Hm Ha Hb Vh Vm. exact (duration_colon dh dm None a b Hh Hm I Ha Hb Vh Vm).
Qed.

Definition unit_letter (u : Z) : option Z :=
  if u =? 104 then Some hour_ns else if u =? 109 then Some minute_ns else if u =? 115 then Some second_ns else None.

Fixpoint render_comps (l : list (bytes * Z)) : bytes :=
  match l with [] => [] | (ds, u) :: r => ds ++ u :: render_comps r end.
Fixpoint comps_value (l : list (bytes * Z)) : Z :=
  match l with
  | [] => 0
  | (ds, u) :: r => dval ds * match unit_letter u with Some x => x | None => 0 end + comps_value r
  end.
Definition comp_ok (c : bytes * Z) : Prop :=
  digits (fst c) /\ dval (fst c) < 2 ^ 40 /\ unit_letter (snd c) <> None.

Lemma unit_letter_facts u x : unit_letter u = Some x ->
  is_digit u = false /\ dur_char u = true /\ unit_ns [u] = Some x /\ 0 < x <= hour_ns.
Proof.
  unfold unit_letter. intros H.
  destruct (Z.eqb_spec u 104) as [->|_]; [|destruct (Z.eqb_spec u 109) as [->|_];
    [|destruct (Z.eqb_spec u 115) as [->|_]; [|discriminate]]];
    injection H as <-; repeat split; try reflexivity; unfold hour_ns, minute_ns, second_ns; lia.
Qed.

Lemma render_comps_dur l : Forall comp_ok l -> forallb dur_char (render_comps l) = true.
Proof.
  induction 1 as [|[ds u] l [Hd [_ Hu]] _ IH]; [reflexivity|]. cbn in *.
  rewrite forallb_app. cbn [forallb]. rewrite (digits_dur _ (proj2 Hd)), IH.
  destruct (unit_letter u) as [x|] eqn:E; [|congruence].
  destruct (unit_letter_facts _ _ E) as (_ & -> & _). reflexivity.
Qed.

Lemma render_comps_head l : Forall comp_ok l ->
  match render_comps l with [] => True | c :: _ => is_digit c = true end.
Proof.
  destruct 1 as [|[ds u] l [[Hne Hd] _] _]; [exact I|]. cbn [fst snd render_comps] in *.
  destruct ds as [|c r]; [congruence|]. cbn [app forallb] in *. now apply andb_true_iff in Hd.
Qed.

Lemma take_until_unit u rest : is_digit u = false ->
  match rest with [] => True | c :: _ => is_digit c = true end ->
  take_until is_digit (u :: rest) = [u] /\ drop_while (fun b => negb (is_digit b)) (u :: rest) = rest.
Proof.
  intros Hu Hr. cbn. rewrite Hu. cbn. destruct rest as [|c rest]; [auto|]. cbn. rewrite Hr. auto.
Qed.

Lemma comps_value_nonneg l : Forall comp_ok l -> 0 <= comps_value l.
Proof.
  induction 1 as [|[ds u] l [[_ Hd] _] _ IH]; cbn [comps_value fst snd] in *; [lia|].
  pose proof (digits_val_lower ds Hd 0 ltac:(lia)). unfold dval.
  destruct (unit_letter u) as [y|] eqn:E; [|lia]. destruct (unit_letter_facts _ _ E) as (_ & _ & _ & Hy). nia.
Qed.

(* every component takes at least two bytes, so the fuel of go_parse_duration suffices *)
Lemma render_comps_length l : Forall comp_ok l -> (2 * length l <= length (render_comps l))%nat.
Proof.
  induction 1 as [|[ds u] l [[Hd _] _] _ IH]; cbn [render_comps length fst] in *; [lia|].
  rewrite app_length. cbn [length]. destruct ds; [congruence|cbn [length]; lia].
Qed.

Lemma render_comps_shape l : l <> [] -> Forall comp_ok l -> render_comps l <> [] /\ render_comps l <> [48].
Proof.
  intros Hne Hl. pose proof (render_comps_length l Hl).
  assert (2 <= length (render_comps l))%nat by (destruct l; [congruence|cbn [length] in *; lia]).
  split; intros E; rewrite E in *; cbn in *; lia.
Qed.

(* below 2^62 neither overflow check of the Go loop fires *)
Lemma pd_loop_comp ds u x rest f d :
  digits ds -> unit_letter u = Some x ->
  match rest with [] => True | c :: _ => is_digit c = true end ->
  0 <= d -> d + dval ds * x < 2 ^ 62 ->
  pd_loop (S f) d (ds ++ u :: rest) = pd_loop f (d + dval ds * x) rest.
Proof.
  intros [Hne Hdg] E Hrest Hd Hb.
  destruct (unit_letter_facts _ _ E) as (Hud & _ & Hun & Hx).
  pose proof (digits_val_lower ds Hdg 0 ltac:(lia)) as Hlow. fold (dval ds) in Hlow.
  assert (2 ^ 62 = 4611686018427387904) as E62 by reflexivity.
  assert (2 ^ 63 = 9223372036854775808) as E63 by reflexivity.
  assert (dval ds * 1 <= dval ds * x) by (apply Z.mul_le_mono_nonneg_l; lia).
  destruct ds as [|c r]; [congruence|]. cbn [app pd_loop].
  pose proof Hdg as Hdg'. cbn [forallb] in Hdg. apply andb_true_iff in Hdg. destruct Hdg as [Hdc _].
  rewrite Hdc. cbn [negb]. change (c :: r ++ u :: rest) with ((c :: r) ++ u :: rest).
  rewrite (leading_int_digits (c :: r) Hdg' 0 (u :: rest) ltac:(lia) ltac:(unfold dval in *; lia) Hud).
  destruct (take_until_unit u rest Hud Hrest) as [-> ->]. rewrite Hun. fold (dval (c :: r)).
  assert (dval (c :: r) <= 2 ^ 63 / x) by (apply Z.div_le_lower_bound; lia).
  destruct (Z.gtb_spec (dval (c :: r)) (2 ^ 63 / x)); [lia|].
  destruct (Z.gtb_spec (d + dval (c :: r) * x) (2 ^ 63)); [lia|reflexivity].
Qed.

Lemma pd_loop_comps l : Forall comp_ok l -> forall fuel d,
  (length l <= fuel)%nat -> 0 <= d -> d + comps_value l < 2 ^ 62 ->
  pd_loop fuel d (render_comps l) = DOk (d + comps_value l).
Proof.
  induction 1 as [|[ds u] l Hc Hl IH]; intros fuel d Hf Hd Hb.
  - cbn [render_comps comps_value] in *. assert (2 ^ 62 < 2 ^ 63 - 1) by reflexivity.
    destruct fuel; cbn [pd_loop]; (destruct (Z.gtb_spec d (2 ^ 63 - 1)); [lia|]); now rewrite Z.add_0_r.
  - destruct Hc as [Hdg [_ Hu]]. cbn [fst snd] in *.
    destruct (unit_letter u) as [x|] eqn:E; [|congruence].
    cbn [render_comps comps_value] in *. rewrite E in *.
    pose proof (comps_value_nonneg l Hl). pose proof (digits_val_lower ds (proj2 Hdg) 0 ltac:(lia)) as Hlow.
    fold (dval ds) in Hlow. destruct (unit_letter_facts _ _ E) as (_ & _ & _ & Hx).
    assert (0 <= dval ds * x) by (apply Z.mul_nonneg_nonneg; lia).
    destruct fuel as [|fuel]; [cbn in Hf; lia|]. cbn in Hf.
    rewrite (pd_loop_comp ds u x) by (try assumption; try apply render_comps_head; try lia; exact Hl).
    rewrite IH by lia. f_equal. lia.
Qed.

Theorem duration_units : forall l a b,
  l <> [] -> Forall comp_ok l -> all_space a -> all_space b -> comps_value l < 2 ^ 62 ->
  parse_duration (a ++ render_comps l ++ b) = Ok (comps_value l).
Proof.
  intros l a b Hne Hl Ha Hb Hv. unfold parse_duration.
  pose proof (render_comps_dur l Hl) as Hc. pose proof (render_comps_length l Hl).
  destruct (render_comps_shape l Hne Hl) as [Hn H0].
  rewrite (dur_pad _ a b (dur_durd _ Hc) Ha Hb), (dur_no_d _ Hc).
  rewrite (go_parse_duration_dur _ (dur_durd _ Hc) Hn H0).
  rewrite pd_loop_comps; [reflexivity|exact Hl|lia|lia|lia].
Qed.

(* NdNhNmNs: days followed by any (possibly empty) sequence of components *)
Theorem duration_days : forall dd l a b,
  digits dd -> dval dd < 2 ^ 32 -> Forall comp_ok l -> all_space a -> all_space b ->
  dval dd * 24 * hour_ns + comps_value l < 2 ^ 62 ->
  parse_duration (a ++ (dd ++ 100 :: render_comps l) ++ b) = Ok (dval dd * 24 * hour_ns + comps_value l).
Proof.
  intros dd l a b [Hdn Hdd] Hdv Hl Ha Hb Hv. unfold parse_duration.
  pose proof (render_comps_dur l Hl) as Hc.
  assert (Hs : forallb durd_char (dd ++ 100 :: render_comps l) = true).
  { rewrite forallb_app. cbn [forallb]. now rewrite (dur_durd _ (digits_dur _ Hdd)), (dur_durd _ Hc). }
  rewrite (dur_pad _ a b Hs Ha Hb).
  assert (contains_byte 100 (dd ++ 100 :: render_comps l) = true) as ->.
  { apply contains_byte_in, in_or_app. right; left; reflexivity. }
  (* the text splits at the first 'd', which is the one written: the day count has none *)
  rewrite splitn_SS, cut_app by (apply (forallb_not_in is_digit); [reflexivity|exact Hdd]).
  cbn [splitn]. rewrite gindex_0. cbn [bind].
  unfold parse_uint. destruct dd as [|c r]; [congruence|]. rewrite Hdd. fold (dval (c :: r)).
  destruct (Z.ltb_spec (dval (c :: r)) (2 ^ 32)); [|lia].
  pose proof (digits_val_lower (c :: r) Hdd 0 ltac:(lia)) as Hlow. fold (dval (c :: r)) in Hlow.
  pose proof (comps_value_nonneg l Hl) as Hcv.
  assert (2 ^ 62 = 4611686018427387904) as E62 by reflexivity.
  assert (hour_ns = 3600000000000) as EH by reflexivity. rewrite EH in *.
  rewrite sint_small by (change (2 ^ (64 - 1)) with 9223372036854775808; lia).
  rewrite gindex_1. cbn [bind].
  destruct l as [|x l'].
  - cbn [render_comps comps_value]. f_equal. lia.
  - pose proof (render_comps_length _ Hl).
    destruct (render_comps_shape (x :: l') ltac:(discriminate) Hl) as [Hn Hn0].
    destruct (render_comps (x :: l')) as [|c0 r0] eqn:ER; [congruence|].
    rewrite <- ER in *. rewrite (go_parse_duration_dur _ (dur_durd _ Hc) Hn Hn0).
    rewrite pd_loop_comps; [|exact Hl|cbn [length] in *; lia|lia|lia].
    f_equal. rewrite Z.add_0_l. apply sint_small; [lia|]. change (2 ^ (64 - 1)) with 9223372036854775808. lia.
Qed.

(* the examples of MIT's documentation *)
Example duration_examples :
  parse_duration (bs " 3600 ") = Ok (3600 * second_ns) /\
  parse_duration (bs "36:00") = Ok (36 * hour_ns) /\
  parse_duration (bs "12:30:15") = Ok (12 * hour_ns + 30 * minute_ns + 15 * second_ns) /\
  parse_duration (bs "8h30s") = Ok (8 * hour_ns + 30 * second_ns) /\
  parse_duration (bs "1d 12h30m") = Ok (36 * hour_ns + 30 * minute_ns) /\
  parse_duration (bs "1d") = Ok (24 * hour_ns) /\
  parse_duration (bs "0") = Ok 0 /\
  parse_duration (bs "1x") = Err invalid /\
  parse_duration (bs "1.5h") = Err unmodelled.
Proof. repeat split; vm_compute; reflexivity. Qed.

Example duration_hypotheses_satisfiable :
  digits (bs "12") /\ dval (bs "12") = 12 /\
  Forall comp_ok [(bs "8", 104); (bs "30", 115)] /\ render_comps [(bs "8", 104); (bs "30", 115)] = bs "8h30s" /\
  comps_value [(bs "8", 104); (bs "30", 115)] = 8 * hour_ns + 30 * second_ns.
Proof.
  repeat split; try reflexivity; try discriminate.
  repeat constructor; cbn; try discriminate; reflexivity.
Qed.

Lemma parse_etypes_app a b w : parse_etypes (a ++ b) w = parse_etypes a w ++ parse_etypes b w.
Proof.
  induction a as [|et a IH]; [reflexivity|]. cbn [app parse_etypes].
  destruct (negb w && existsb (beq_bytes et) weak_etypes); [exact IH|].
  destruct (etype_supported et =? 0); [exact IH|]. cbn. now rewrite IH.
Qed.

Theorem parse_etypes_supported : forall names w,
  Forall (fun i => In i [17; 18; 19; 20; 16; 23]) (parse_etypes names w).
Proof.
  induction names as [|et r IH]; intros w; cbn [parse_etypes]; [constructor|].
  destruct (negb w && existsb (beq_bytes et) weak_etypes); [apply IH|].
  destruct (Z.eqb_spec (etype_supported et) 0) as [|Hne]; [apply IH|].
  constructor; [|apply IH].
  unfold etype_supported in *. destruct (lookup et etypes_by_name) as [id|]; [|congruence].
  destruct (existsb (Z.eqb id) [17; 18; 19; 20; 16; 23]) eqn:E; [|congruence].
  apply existsb_exists in E. destruct E as (x & Hin & Hx). apply Z.eqb_eq in Hx. now subst.
Qed.

(* the documented names of the implemented enctypes give the registered numbers, whatever
   allow_weak_crypto says; the weak and the unimplemented ones are dropped *)
Theorem parse_etypes_documented : forall w,
  parse_etypes [bs "aes256-cts-hmac-sha1-96"; bs "aes256-cts"; bs "aes256-sha1"] w = [18; 18; 18] /\
  parse_etypes [bs "aes128-cts-hmac-sha1-96"; bs "aes128-cts"; bs "aes128-sha1"] w = [17; 17; 17] /\
  parse_etypes [bs "aes128-cts-hmac-sha256-128"; bs "aes128-sha2"] w = [19; 19] /\
  parse_etypes [bs "aes256-cts-hmac-sha384-192"; bs "aes256-sha2"] w = [20; 20] /\
  parse_etypes [bs "arcfour-hmac"; bs "rc4-hmac"; bs "arcfour-hmac-md5"] w = [23; 23; 23] /\
  parse_etypes [bs "des3-cbc-sha1-kd"] w = [16] /\
  parse_etypes [bs "des-cbc-crc"; bs "des-cbc-md5"; bs "des-cbc-md4"; bs "des"; bs "arcfour-hmac-exp";
                bs "camellia256-cts-cmac"; bs "camellia128-cts-cmac"; bs "unknown"] w = [].
Proof. intros [|]; repeat split; vm_compute; reflexivity. Qed.

(* the default lists of newLibDefaults *)
Example parse_etypes_default : parse_etypes default_etypes false = [18; 17; 23].
Proof. vm_compute. reflexivity. Qed.

Definition auf_fold (vals : list bytes) (st : list bytes * bool) : list bytes * bool :=
  fold_left (fun '(s, f) v => append_until_final s v f) vals st.

Definition marked (v : bytes) : Prop := exists r, v = r ++ [42].

Lemma auf_unmarked s v : ~ marked v -> append_until_final s v false = (s ++ [v], false).
Proof.
  intros H. unfold append_until_final. destruct (rev v) as [|c r] eqn:E; [reflexivity|].
  destruct (Z.eqb_spec c 42) as [->|Hc].
  - exfalso. apply H. exists (rev r). apply (f_equal (@rev Z)) in E. rewrite rev_involutive in E. exact E.
  - (* c <> 42, but the model's `match … with 42 :: r` only reduces on a constructor form of c *)
    destruct c as [|p|p]; try reflexivity.
    do 6 (destruct p as [p|p|]; try reflexivity). congruence.
Qed.

Lemma auf_marked s r : append_until_final s (r ++ [42]) false = (s ++ [r], true).
Proof. unfold append_until_final. rewrite rev_app_distr. cbn. now rewrite rev_involutive. Qed.

Lemma auf_final_ignores vals : forall s, auf_fold vals (s, true) = (s, true).
Proof. induction vals as [|v vals IH]; intros s; [reflexivity|]. cbn. apply IH. Qed.

Lemma auf_fold_unmarked pre rest : Forall (fun v => ~ marked v) pre ->
  forall s, auf_fold (pre ++ rest) (s, false) = auf_fold rest (s ++ pre, false).
Proof.
  induction 1 as [|v pre Hv _ IH]; intros s; cbn [app]; [now rewrite app_nil_r|].
  unfold auf_fold in *. cbn [fold_left]. rewrite (auf_unmarked s v Hv), IH. now rewrite <- app_assoc.
Qed.

(* values up to and including the first one that carries the marker are kept (the marker is removed),
   every later value is ignored *)
Theorem append_until_final_spec : forall pre r post,
  Forall (fun v => ~ marked v) pre ->
  auf_fold (pre ++ (r ++ [42]) :: post) ([], false) = (pre ++ [r], true).
Proof.
  intros pre r post H. rewrite (auf_fold_unmarked pre _ H). cbn [app auf_fold fold_left].
  rewrite auf_marked. apply auf_final_ignores.
Qed.

Theorem append_until_final_no_marker : forall vals,
  Forall (fun v => ~ marked v) vals -> auf_fold vals ([], false) = (vals, false).
Proof. intros vals H. rewrite <- (app_nil_r vals) at 1. now rewrite (auf_fold_unmarked vals [] H). Qed.

Example append_until_final_example :
  auf_fold [bs "k1:88"; bs "k2:88*"; bs "k3:88"; bs "k4:88*"] ([], false) = ([bs "k1:88"; bs "k2:88"], true) /\
  ~ marked (bs "k1:88") /\ marked (bs "k2:88*").
Proof.
  split; [vm_compute; reflexivity|]. split.
  - intros [r E]. apply (f_equal (@rev Z)) in E. rewrite rev_app_distr in E. cbn in E. discriminate.
  - exists (bs "k2:88"). reflexivity.
Qed.

(* kdc relations without a port get :88, with or without the marker *)
Example kdc_default_port_examples :
  kdc_default_port (bs "kdc.example.com") = bs "kdc.example.com:88" /\
  kdc_default_port (bs "kdc.example.com*") = bs "kdc.example.com:88*" /\
  kdc_default_port (bs "kdc.example.com *") = bs "kdc.example.com:88*" /\
  kdc_default_port (bs "kdc.example.com:750") = bs "kdc.example.com:750".
Proof. repeat split; vm_compute; reflexivity. Qed.
