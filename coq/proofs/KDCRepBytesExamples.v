(* The hypotheses of the bytes-mode theorems of KDCRepBytesProofs.v are satisfiable, and the list of unsealed fields that
   matter is exact: one concrete AS exchange (keytab and password credentials) and one TGS exchange, sealed with the
   executable cipher model (aes128-cts-hmac-sha1-96), every verdict computed from the wire bytes. *)
From Gokrb5.lib Require Import Bytes JV.
From Gokrb5.model Require Import Keytab Crypto PAData Replay APReq KDCRep Schema DER DERCodec RFCSchemas KDCRepBytes.
From Gokrb5.proofs Require Import DERProofs KDCRepProofs KDCRepBytesDec KDCRepBytesProofs.

Module Ex.
  Definition realm : bytes := [84;69;83;84;46;71;79;75;82;66;53].                  (* "TEST.GOKRB5" *)
  Definition user : bytes := [116;101;115;116;117;115;101;114;49].                 (* "testuser1" *)
  Definition krbtgt : bytes := [107;114;98;116;103;116].
  Definition key : bytes := [1;2;3;4;5;6;7;8;9;10;11;12;13;14;15;16].              (* aes128-cts-hmac-sha1-96 *)
  Definition skew : Z := 300000000.
  Definition now : Z := 1700000100 * 1000000.

  Definition creds_kt : creds :=
    mkCreds (Some [mkEntry (mkPrincipal 1 realm [user] 1) 1600000000 2 17 key 2]) None.
  Definition rq : kdc_req := mkReq [user] realm [krbtgt; realm] 12345 [].

  (* what the KDC seals *)
  Definition er : enc_rep := mkEncRep 12345 [krbtgt; realm] realm [] 1700000000 None [64;128;0;0].
  Definition x : enc_extra :=
    mkExtra (VSeq [Some (VInt 17); Some (VBytes (repeatz 7 16))])
            (VList [VSeq [Some (VInt 0); Some (VTime 1700000000)]])
            None (VTime 1700036000) None 2 None.
  Definition plain (n : Z) : bytes := enc (TApp n rfc_EncKDCRepPart) (inject_enc_rep x er).
  Definition seal (k : bytes) (usage n : Z) (pad : bytes) : bytes :=
    match encrypt_with 17 k usage (repeatz 9 16) (plain n ++ pad) with Ok c => c | _ => [] end.

  Definition pname (t : Z) (l : list bytes) : value := VSeq [Some (VInt t); Some (VList (map VBytes l))].
  Definition ticket (trealm : bytes) : value :=
    VSeq [Some (VInt 5); Some (VBytes trealm); Some (pname 2 [krbtgt; realm]);
          Some (VSeq [Some (VInt 18); Some (VInt 1); Some (VBytes (repeatz 200 40))])].
  Definition rep (pvno mt : Z) (pad : option value) (crealm : bytes) (cname : list bytes) (tkt : value)
             (et : Z) (kv : option value) (cipher : bytes) : value :=
    VSeq [Some (VInt pvno); Some (VInt mt); pad; Some (VBytes crealm); Some (pname 1 cname); Some tkt;
          Some (VSeq [Some (VInt et); kv; Some (VBytes cipher)])].

  (* ---- AS exchange, keytab credentials ---- *)
  Definition as_cipher : bytes := seal key 3 25 [].
  Definition as_val : value := rep 5 11 None realm [user] (ticket realm) 17 (Some (VInt 2)) as_cipher.
  Definition as_wire : bytes := enc rfc_ASRep as_val.
  Definition as_rp : kdc_rep := mkRep [user] realm realm 17 2 as_cipher [].

  Example as_accepted : asrep_verify_bytes skew creds_kt rq as_wire now = Ok true.
  Proof. vm_compute. reflexivity. Qed.

  (* the hypotheses of the refinement theorem hold for it *)
  Example as_wf : wf_rep_val 11 as_val = true.
  Proof. vm_compute. reflexivity. Qed.
  Example as_encode : encode rfc_ASRep as_val = Some as_wire.
  Proof. vm_compute. reflexivity. Qed.
  Example as_project : project_rep as_val = Some as_rp.
  Proof. vm_compute. reflexivity. Qed.
  Example er_wf : wf_enc_inj 25 x er = true /\ wf_enc_inj 26 x er = true.
  Proof. vm_compute. auto. Qed.
  Example as_seals : forall kv kt pt,
    as_key creds_kt as_rp = Ok (kv, kt) -> decrypt kt kv 3 (rp_cipher as_rp) = Ok pt -> seals er pt.
  Proof.
    intros kv kt pt EK ED.
    assert (K : as_key creds_kt as_rp = Ok (key, 17)) by (vm_compute; reflexivity).
    rewrite K in EK. injection EK as <- <-.
    assert (D : decrypt 17 key 3 (rp_cipher as_rp) = Ok (plain 25 ++ [])) by (vm_compute; reflexivity).
    rewrite D in ED. apply ok_inj in ED. subst pt.
    exists 25, x, (plain 25), []. split; [left; reflexivity|]. split; [apply er_wf|]. split; [|reflexivity].
    vm_compute. reflexivity.
  Qed.
  Example as_by_theorem :
    asrep_verify_bytes skew creds_kt rq (as_wire ++ [0; 0; 0]) now = asrep_verify (fun _ => Some er) skew creds_kt rq as_rp now.
  Proof. exact (asrep_bytes_refines_sealed _ _ _ _ _ _ _ _ _ as_wf as_encode as_project as_seals). Qed.

  (* the decoder of the sealed part: either APPLICATION tag, trailing octets (through the theorem) *)
  Example sealed_tag_26_padded : dec_enc_der (plain 26 ++ [0; 0; 0; 0; 0]) = Some er.
  Proof.
    apply (dec_enc_der_inject 26 x er); [right; reflexivity | apply er_wf | vm_compute; reflexivity].
  Qed.

  (* (b) pvno and the ticket do not matter (through the theorem) ... *)
  Definition as_val' : value :=
    rep 4 11 None realm [user] (VSeq [Some (VInt 9); Some (VBytes krbtgt); Some (pname 1 []);
                                       Some (VSeq [Some (VInt 23); None; Some (VBytes [])])]) 17 (Some (VInt 2)) as_cipher.
  Example as_pvno_ticket_irrelevant :
    asrep_verify_bytes skew creds_kt rq (enc rfc_ASRep as_val') now = Ok true.
  Proof.
    rewrite <- as_accepted. rewrite <- (app_nil_r (enc rfc_ASRep as_val')), <- (app_nil_r as_wire). symmetry.
    apply (asrep_ignores_pvno_and_ticket skew creds_kt rq as_val as_val').
    - unfold as_same_checked, as_val, as_val', rep. repeat eexists.
    - exact as_wf.
    - vm_compute. reflexivity.
    - exact as_encode.
    - vm_compute. reflexivity.
  Qed.

  (* ... and every field of as_relevant does: changing it alone turns the accepted reply into a rejected one *)
  Definition verdict (v : value) : res bool := asrep_verify_bytes skew creds_kt rq (enc rfc_ASRep v) now.
  Example as_cname_matters : verdict (rep 5 11 None realm [krbtgt] (ticket realm) 17 (Some (VInt 2)) as_cipher) = Ok false.
  Proof. vm_compute. reflexivity. Qed.
  Example as_crealm_matters : verdict (rep 5 11 None krbtgt [user] (ticket realm) 17 (Some (VInt 2)) as_cipher) = Ok false.
  Proof. vm_compute. reflexivity. Qed.
  Example as_etype_matters : verdict (rep 5 11 None realm [user] (ticket realm) 18 (Some (VInt 2)) as_cipher) = Ok false.
  Proof. vm_compute. reflexivity. Qed.
  Example as_kvno_matters : verdict (rep 5 11 None realm [user] (ticket realm) 17 (Some (VInt 3)) as_cipher) = Ok false.
  Proof. vm_compute. reflexivity. Qed.
  Example as_cipher_matters :
    verdict (rep 5 11 None realm [user] (ticket realm) 17 (Some (VInt 2)) (seal key 8 25 [])) = Ok false.
  Proof. vm_compute. reflexivity. Qed.
  Example as_msg_type_checked : verdict (rep 5 13 None realm [user] (ticket realm) 17 (Some (VInt 2)) as_cipher) = Ok false.
  Proof. vm_compute. reflexivity. Qed.

  (* the padata hints matter to a password client: ETYPE-INFO2 announcing the salt and one PBKDF2 round *)
  Definition pw : bytes := [112;97;115;115;119;111;114;100].                       (* "password" *)
  Definition creds_pw : creds := mkCreds None (Some pw).
  Definition info2 (salt : bytes) : value :=
    VList [VSeq [Some (VInt 19);
                 Some (VBytes (enc (TSeqOf rfc_ETypeInfo2Entry)
                                   (VList [VSeq [Some (VInt 17); Some (VBytes salt); Some (VBytes [0;0;0;1])]])))]].
  Definition pw_key : bytes := match string_to_key 17 pw user [48;48;48;48;48;48;48;49] with Ok k => k | _ => [] end.
  Definition pw_val (salt : bytes) : value :=
    rep 5 11 (Some (info2 salt)) realm [user] (ticket realm) 17 None (seal pw_key 3 25 []).
  Example pw_accepted : asrep_verify_bytes skew creds_pw rq (enc rfc_ASRep (pw_val user)) now = Ok true.
  Proof. vm_compute. reflexivity. Qed.
  Example pw_hints_matter : asrep_verify_bytes skew creds_pw rq (enc rfc_ASRep (pw_val realm)) now = Ok false.
  Proof. vm_compute. reflexivity. Qed.

  (* ---- TGS exchange ---- *)
  Definition skey : bytes := repeatz 33 16.
  Definition service : list bytes := [[72;84;84;80]; [104;111;115;116]].           (* HTTP/host *)
  Definition trq : kdc_req := mkReq [user] realm service 12345 [].
  Definition tgs_cipher : bytes := seal skey 8 26 [].
  Definition tgs_val : value := rep 5 13 None realm [user] (ticket realm) 17 None tgs_cipher.
  Definition tverdict (v : value) : res bool := tgsrep_verify_bytes skew 17 skey trq (enc rfc_TGSRep v) now.

  Example tgs_accepted : tverdict tgs_val = Ok true.
  Proof. vm_compute. reflexivity. Qed.
  Example tgs_wf : wf_rep_val 13 tgs_val = true.
  Proof. vm_compute. reflexivity. Qed.
  Example tgs_cname_matters : tverdict (rep 5 13 None realm [krbtgt] (ticket realm) 17 None tgs_cipher) = Ok false.
  Proof. vm_compute. reflexivity. Qed.
  Example tgs_ticket_realm_matters : tverdict (rep 5 13 None realm [user] (ticket krbtgt) 17 None tgs_cipher) = Ok false.
  Proof. vm_compute. reflexivity. Qed.
  Example tgs_cipher_matters : tverdict (rep 5 13 None realm [user] (ticket realm) 17 None (seal skey 3 26 [])) = Ok false.
  Proof. vm_compute. reflexivity. Qed.
  (* crealm, padata, etype, kvno, pvno and the rest of the ticket do not (through the theorem) *)
  Definition tgs_val' : value :=
    VSeq [Some (VInt 4); Some (VInt 13); Some (info2 realm); Some (VBytes krbtgt); Some (pname 1 [user]);
          Some (VSeq [Some (VInt 9); Some (VBytes realm); Some (pname 1 []);
                      Some (VSeq [Some (VInt 23); None; Some (VBytes [])])]);
          Some (VSeq [Some (VInt 99); Some (VInt 7); Some (VBytes tgs_cipher)])].
  Example tgs_unchecked_fields_irrelevant : tverdict tgs_val' = Ok true.
  Proof.
    rewrite <- tgs_accepted. unfold tverdict.
    rewrite <- (app_nil_r (enc rfc_TGSRep tgs_val')), <- (app_nil_r (enc rfc_TGSRep tgs_val)). symmetry.
    apply (tgsrep_ignores_unchecked_fields skew 17 skey trq tgs_val tgs_val').
    - unfold tgs_same_checked, tgs_val, tgs_val', rep, ticket. repeat eexists.
    - exact tgs_wf.
    - vm_compute. reflexivity.
    - vm_compute. reflexivity.
    - vm_compute. reflexivity.
  Qed.

  (* (c) the AS-REP handed to the TGS verification and the converse; a truncated reply; a reply with a
     non-minimal length *)
  Example as_wire_to_tgs : tgsrep_verify_bytes skew 17 key rq as_wire now = Ok false.
  Proof.
    rewrite <- (app_nil_r as_wire). apply (tgsrep_rejects_asrep skew 17 key rq as_val as_wire [] now as_encode).
    vm_compute. reflexivity.
  Qed.
  Example as_truncated : asrep_verify_bytes skew creds_kt rq (firstn 300 as_wire) now = Ok false.
  Proof. vm_compute. reflexivity. Qed.
  Example as_wrapper_length_ignored :
    (* the outer [APPLICATION 11] length is read and not used: one of the leniencies the model reproduces *)
    match as_wire with
    | a :: l0 :: l1 :: l2 :: r => asrep_verify_bytes skew creds_kt rq (a :: l0 :: l1 :: (l2 - 1) :: r) now = Ok true
    | _ => False
    end.
  Proof. vm_compute. reflexivity. Qed.
End Ex.
