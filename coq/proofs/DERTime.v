(* Gokrb5.proofs.DERTime — GeneralizedTime: dec_time inverts enc_time on years 0001..9999, and accepts only
   what enc_time writes.  The civil-from-days algorithm is split in two: the year of a day of the 400-year era
   (monotone in the day, and right at both ends of each of the 400 years) and month and day within a March-based
   year (two tables of 366 and 12 x 31 entries, by evaluation); the era arithmetic is lia. *)
From Coq Require Import ZifyBool.
From Gokrb5.lib Require Import Bytes.
From Gokrb5.model Require Import DER.
From Gokrb5.proofs Require Import DERBasic.
Local Ltac Zify.zify_post_hook ::= Z.div_mod_to_equations.

Fixpoint all_from (f : Z -> bool) (n : nat) (lo : Z) : bool :=
  match n with O => true | S k => f lo && all_from f k (lo + 1) end.

Lemma all_from_spec f n : forall lo, all_from f n lo = true ->
  forall x, lo <= x < lo + Z.of_nat n -> f x = true.
Proof.
  induction n as [|n IH]; intros lo H x Hx; [lia|].
  cbn [all_from] in H. apply andb_true_iff in H. destruct H as [H1 H2].
  destruct (Z.eq_dec x lo); [subst; auto|]. apply (IH (lo + 1)); auto. lia.
Qed.

Lemma is_leap_period a e : is_leap (a + e * 400) = is_leap a.
Proof.
  unfold is_leap.
  replace ((a + e * 400) mod 4) with (a mod 4) by lia.
  replace ((a + e * 400) mod 100) with (a mod 100) by lia.
  replace ((a + e * 400) mod 400) with (a mod 400) by lia. reflexivity.
Qed.

Lemma days_in_month_period a e m : days_in_month (a + e * 400) m = days_in_month a m.
Proof. unfold days_in_month. rewrite is_leap_period. reflexivity. Qed.

Lemma days_in_month_range y m : 28 <= days_in_month y m <= 31.
Proof.
  unfold days_in_month. destruct (m =? 2); [destruct (is_leap y); lia|].
  destruct ((m =? 4) || (m =? 6) || (m =? 9) || (m =? 11)); lia.
Qed.

(* The March-based year y of an era begins on day ys y of the era and has ylen y days (its February
   belongs to the January-based year y + 1). *)
Definition ys (y : Z) : Z := 365 * y + y / 4 - y / 100.
Definition ylen (y : Z) : Z := if is_leap (y + 1) then 366 else 365.
Definition yoe_of (doe : Z) : Z := (doe - doe / 1460 + doe / 36524 - doe / 146096) / 365.

Lemma yoe_of_mono a b : 0 <= a <= b -> b < 146097 -> yoe_of a <= yoe_of b.
Proof. unfold yoe_of. lia. Qed.

Definition year_check (y : Z) : bool :=
  (yoe_of (ys y) =? y) && (yoe_of (ys y + ylen y - 1) =? y) && ((y =? 399) || (ys y + ylen y =? ys (y + 1))).

Lemma year_check_all : all_from year_check 400 0 = true.
Proof. vm_compute. reflexivity. Qed.

Lemma year_ends y : 0 <= y < 400 ->
  yoe_of (ys y) = y /\ yoe_of (ys y + ylen y - 1) = y /\ (y < 399 -> ys y + ylen y = ys (y + 1)).
Proof.
  intros H. pose proof (all_from_spec _ _ _ year_check_all y ltac:(lia)) as C.
  unfold year_check in C. lia.
Qed.

Lemma ys_bounds y : 0 <= y < 400 -> 0 <= ys y /\ 365 <= ylen y <= 366 /\ ys y + ylen y <= 146097.
Proof. intros H. unfold ylen, ys. destruct (is_leap (y + 1)); lia. Qed.

Lemma yoe_of_exact y r : 0 <= y < 400 -> 0 <= r < ylen y -> yoe_of (ys y + r) = y.
Proof.
  intros Hy Hr. destruct (year_ends y Hy) as (E1 & E2 & _). pose proof (ys_bounds y Hy).
  pose proof (yoe_of_mono (ys y) (ys y + r)). pose proof (yoe_of_mono (ys y + r) (ys y + ylen y - 1)). lia.
Qed.

Lemma doe_year doe : 0 <= doe < 146097 ->
  0 <= yoe_of doe < 400 /\ ys (yoe_of doe) <= doe < ys (yoe_of doe) + ylen (yoe_of doe).
Proof.
  intros H. pose proof (yoe_of_mono 0 doe) as M0. pose proof (yoe_of_mono doe 146096) as M1.
  change (yoe_of 0) with 0 in M0. change (yoe_of 146096) with 399 in M1.
  remember (yoe_of doe) as y eqn:Ey.
  assert (Hy : 0 <= y < 400) by lia. split; [exact Hy|]. pose proof (ys_bounds y Hy). split.
  - (* a day before the first of year y lies in year y - 1 or earlier *)
    destruct (Z.le_gt_cases (ys y) doe) as [|L]; [assumption|exfalso].
    assert (Hy1 : 0 <= y - 1 < 399) by (assert (y <> 0) by (intros ->; change (ys 0) with 0 in L; lia); lia).
    destruct (year_ends (y - 1) ltac:(lia)) as (_ & E2 & E3). replace (y - 1 + 1) with y in E3 by lia.
    pose proof (yoe_of_mono doe (ys (y - 1) + ylen (y - 1) - 1)) as M. rewrite <- Ey in M. lia.
  - destruct (Z.lt_ge_cases doe (ys y + ylen y)) as [|L]; [assumption|exfalso].
    assert (y <> 399) by (intros ->; change (ys 399 + ylen 399) with 146097 in L; lia).
    destruct (year_ends y Hy) as (_ & _ & E). destruct (year_ends (y + 1) ltac:(lia)) as (E1 & _ & _).
    pose proof (yoe_of_mono (ys (y + 1)) doe) as M. rewrite <- Ey in M. lia.
Qed.

Definition mp_of (m : Z) : Z := if 2 <? m then m - 3 else m + 9.
Definition doy_of (m d : Z) : Z := (153 * mp_of m + 2) / 5 + d - 1.

(* only February depends on the year: year 4 stands for the leap years, year 1 for the others *)
Lemma days_in_month_leap a m : days_in_month a m = days_in_month (if is_leap a then 4 else 1) m.
Proof. unfold days_in_month. destruct (is_leap a); reflexivity. Qed.

Definition doy_check (doy : Z) : bool :=
  let mp := (5 * doy + 2) / 153 in
  let m := if mp <? 10 then mp + 3 else mp - 9 in
  let d := doy - (153 * mp + 2) / 5 + 1 in
  (1 <=? m) && (m <=? 12) && (1 <=? d) && (d <=? days_in_month (if doy =? 365 then 4 else 1) m)
  && Bool.eqb (m <=? 2) (306 <=? doy) && (doy_of m d =? doy).

Lemma doy_check_all : all_from doy_check 366 0 = true.
Proof. vm_compute. reflexivity. Qed.

Definition md_check (m d : Z) : bool :=
  let doy := doy_of m d in
  if d <=? days_in_month 4 m then
    (0 <=? doy) && (doy <=? 365) && ((5 * doy + 2) / 153 =? mp_of m) && Bool.eqb (m <=? 2) (306 <=? doy)
    && (negb (doy =? 365) || (m =? 2) && (d =? 29))
  else true.

Lemma md_check_all : all_from (fun m => all_from (md_check m) 31 1) 12 1 = true.
Proof. vm_compute. reflexivity. Qed.

(* y is the March-based year of the era, a the January-based one: a = y + 1 from day 306 of the year (1 January) on.
   So a runs from 0 (the first 306 days of the era) to 400 (its last 60 days, from day 146037 on). *)
Lemma civil_of_doe_spec doe a m d : 0 <= doe < 146097 -> civil_of_doe doe = (a, m, d) ->
  let y := if m <=? 2 then a - 1 else a in
  0 <= y < 400 /\ 1 <= m <= 12 /\ 1 <= d <= days_in_month a m /\ doe_of_civil y m d = doe
  /\ (306 <= doe -> 1 <= a) /\ (doe <= 146036 -> a <= 399).
Proof.
  intros H. destruct (doe_year doe H) as (Hy & Hlo & Hhi). pose proof (ys_bounds _ Hy) as B.
  unfold civil_of_doe. change ((doe - doe / 1460 + doe / 36524 - doe / 146096) / 365) with (yoe_of doe).
  set (y := yoe_of doe) in *. change (365 * y + y / 4 - y / 100) with (ys y). set (doy := doe - ys y).
  pose proof (all_from_spec _ _ _ doy_check_all doy ltac:(lia)) as C. unfold doy_check in C. cbv zeta.
  set (mp := (5 * doy + 2) / 153) in *. set (m0 := if mp <? 10 then mp + 3 else mp - 9) in *.
  set (d0 := doy - (153 * mp + 2) / 5 + 1) in *.
  assert (Hl : doy = 365 -> is_leap (y + 1) = true) by (unfold ylen in Hhi; destruct (is_leap (y + 1)); lia).
  assert (Edoy : doe = ys y + doy) by (subst doy; lia). clearbody doy mp m0 d0.
  intros E. injection E as <- <- <-.
  assert (Ey : (if m0 <=? 2 then (if m0 <=? 2 then y + 1 else y) - 1 else if m0 <=? 2 then y + 1 else y) = y)
    by (destruct (m0 <=? 2); lia).
  cbv zeta. rewrite Ey. split; [exact Hy|]. split; [lia|]. split; [|split].
  - split; [lia|]. rewrite days_in_month_leap. revert C. destruct (Z.eqb_spec doy 365) as [E|E]; intros C.
    + (* day 365 falls in February of year y + 1, which has 29 days *)
      replace (m0 <=? 2) with true by lia. rewrite (Hl E). lia.
    + destruct (is_leap (if m0 <=? 2 then y + 1 else y)); [|lia].
      unfold days_in_month in *. destruct (m0 =? 2); [|lia]. cbn in *. lia.
  - unfold doe_of_civil. fold (mp_of m0). unfold doy_of, ys in *. lia.
  - unfold ys in *. destruct (Z.leb_spec m0 2); lia.
Qed.

Lemma doe_of_civil_spec y m d a : 0 <= y < 400 -> 1 <= m <= 12 ->
  a = (if m <=? 2 then y + 1 else y) -> 1 <= d <= days_in_month a m ->
  0 <= doe_of_civil y m d < 146097 /\ civil_of_doe (doe_of_civil y m d) = (a, m, d)
  /\ (1 <= a -> 306 <= doe_of_civil y m d) /\ (a <= 399 -> doe_of_civil y m d <= 146036).
Proof.
  intros Hy Hm Ha Hd. pose proof (ys_bounds _ Hy) as B.
  pose proof (all_from_spec _ _ _ (all_from_spec _ _ _ md_check_all m ltac:(lia)) d
                ltac:(pose proof (days_in_month_range a m); lia)) as C.
  unfold md_check in C. set (doy := doy_of m d) in *.
  assert (E : doe_of_civil y m d = ys y + doy).
  { unfold doe_of_civil. fold (mp_of m). unfold doy, doy_of, ys. lia. }
  assert (Hd4 : d <= days_in_month 4 m).
  { rewrite days_in_month_leap in Hd. destruct (is_leap a); [lia|].
    unfold days_in_month in *. destruct (m =? 2); cbn in *; lia. }
  replace (d <=? days_in_month 4 m) with true in C by lia.
  assert (Hl : doy < ylen y).
  { unfold ylen. destruct (Z.eqb_spec doy 365) as [E5|]; [|destruct (is_leap (y + 1)); lia].
    (* day 365 is 29 February, a valid date only if year y + 1 is a leap year *)
    assert (m = 2 /\ d = 29) as [-> ->] by lia. subst a. unfold days_in_month in Hd. cbn in Hd.
    destruct (is_leap (y + 1)); lia. }
  rewrite E. split; [lia|]. split; [|unfold ys; subst a; destruct (Z.leb_spec m 2); lia].
  unfold civil_of_doe.
  change ((ys y + doy - (ys y + doy) / 1460 + (ys y + doy) / 36524 - (ys y + doy) / 146096) / 365)
    with (yoe_of (ys y + doy)).
  rewrite yoe_of_exact by lia. change (365 * y + y / 4 - y / 100) with (ys y).
  replace (ys y + doy - ys y) with doy by lia. cbv zeta. replace ((5 * doy + 2) / 153) with (mp_of m) by lia.
  replace (if mp_of m <? 10 then mp_of m + 3 else mp_of m - 9) with m 
    by (unfold mp_of; destruct (Z.ltb_spec 2 m); [destruct (Z.ltb_spec (m - 3) 10)|destruct (Z.ltb_spec (m + 9) 10)]; lia).
  subst a. f_equal. unfold doy, doy_of. lia.
Qed.

(* 719468 is the number of days from 0000-03-01 to 1970-01-01, 146097 the length of a 400-year era; -719162 and
   2932896 are the day numbers of 0001-01-01 and 9999-12-31. *)
Lemma civil_of_days_spec days y m d : civil_of_days days = (y, m, d) ->
  1 <= m <= 12 /\ 1 <= d <= days_in_month y m /\ days_of_civil y m d = days
  /\ (-719162 <= days <= 2932896 -> 1 <= y <= 9999).
Proof.
  unfold civil_of_days. set (z := days + 719468).
  destruct (civil_of_doe (z mod 146097)) as [[a m'] d'] eqn:C.
  apply civil_of_doe_spec in C; [|lia]. destruct C as (Hy & Hm & Hd & Hdoe & Hlo & Hhi).
  intros E; inversion E; subst y m' d'; clear E.
  assert (Hz : z = 146097 * (z / 146097) + z mod 146097) by lia.
  assert (Hr : 0 <= z mod 146097 < 146097) by lia.
  set (era := z / 146097) in *. set (doe := z mod 146097) in *.
  rewrite days_in_month_period. unfold days_of_civil.
  destruct (Z.leb_spec m 2) as [Hm2|Hm2].
  - replace ((a + era * 400 - 1) / 400) with era by lia.
    replace ((a + era * 400 - 1) mod 400) with (a - 1) by lia. lia.
  - replace ((a + era * 400) / 400) with era by lia.
    replace ((a + era * 400) mod 400) with a by lia. lia.
Qed.

Lemma num2_dig n : 0 <= n <= 99 -> num2 (48 + n / 10) (48 + n mod 10) = n.
Proof. intros H. unfold num2. lia. Qed.

Lemma num4_dig n : 0 <= n <= 9999 ->
  num4 (48 + n / 1000) (48 + (n / 100) mod 10) (48 + (n / 10) mod 10) (48 + n mod 10) = n.
Proof. intros H. unfold num4. lia. Qed.

Lemma dig2_digits n : 0 <= n <= 99 -> forallb is_digit (dig2 n) = true.
Proof. intros H. unfold dig2, is_digit. cbn [forallb]. lia. Qed.

Lemma dig4_digits n : 0 <= n <= 9999 -> forallb is_digit (dig4 n) = true.
Proof. intros H. unfold dig4, is_digit. cbn [forallb]. lia. Qed.

Lemma dec_time_fields y m d h n s :
  0 <= y <= 9999 -> 0 <= m <= 99 -> 0 <= d <= 99 -> 0 <= h <= 99 -> 0 <= n <= 99 -> 0 <= s <= 99 ->
  dec_time (dig4 y ++ dig2 m ++ dig2 d ++ dig2 h ++ dig2 n ++ dig2 s ++ [90])
  = if date_ok y m d h n s then Some (time_of_fields y m d h n s) else None.
Proof.
  intros Hy Hm Hd Hh Hn Hs.
  pose proof (dig4_digits y Hy) as Dy. pose proof (dig2_digits m Hm) as Dm.
  pose proof (dig2_digits d Hd) as Dd. pose proof (dig2_digits h Hh) as Dh.
  pose proof (dig2_digits n Hn) as Dn. pose proof (dig2_digits s Hs) as Ds.
  unfold dig4, dig2 in *. cbn [app dec_time]. cbn [forallb] in *.
  split_andb.
  repeat match goal with H : is_digit _ = true |- _ => rewrite H; clear H end.
  cbn [andb]. rewrite Z.eqb_refl.
  rewrite num4_dig, !num2_dig by assumption. reflexivity.
Qed.

Theorem dec_time_enc_time secs : time_ok secs = true -> dec_time (enc_time secs) = Some secs.
Proof.
  unfold time_ok, time_min, time_max. intros H. unfold enc_time.
  destruct (civil_of_days (secs / 86400)) as [[y m] d] eqn:E.
  apply civil_of_days_spec in E. destruct E as (Hm & Hd & Hdays & Hy).
  specialize (Hy ltac:(lia)). pose proof (days_in_month_range y m).
  rewrite dec_time_fields by lia.
  replace (date_ok y m d (secs mod 86400 / 3600) (secs mod 86400 / 60 mod 60) (secs mod 86400 mod 60))
    with true by (unfold date_ok; lia).
  unfold time_of_fields. rewrite Hdays. f_equal. lia.
Qed.

Lemma enc_time_length secs : length (enc_time secs) = 15%nat.
Proof. unfold enc_time. destruct (civil_of_days (secs / 86400)) as [[y m] d]. reflexivity. Qed.

Lemma enc_time_wf secs : time_ok secs = true -> wf_bytes (enc_time secs).
Proof.
  unfold time_ok, time_min, time_max. intros H. unfold enc_time.
  destruct (civil_of_days (secs / 86400)) as [[y m] d] eqn:E.
  apply civil_of_days_spec in E. destruct E as (Hm & Hd & Hdays & Hy).
  specialize (Hy ltac:(lia)). pose proof (days_in_month_range y m).
  unfold dig4, dig2. cbn [app]. repeat (apply wf_bytes_cons; split; [lia|]). constructor.
Qed.

Example enc_time_epoch : enc_time 0 = [49;57;55;48;48;49;48;49;48;48;48;48;48;48;90].        (* 19700101000000Z *)
Proof. vm_compute. reflexivity. Qed.
Example enc_time_2010 : enc_time 1262304000 = [50;48;49;48;48;49;48;49;48;48;48;48;48;48;90]. (* 20100101000000Z *)
Proof. vm_compute. reflexivity. Qed.
Example enc_time_leap : enc_time 951782400 = [50;48;48;48;48;50;50;57;48;48;48;48;48;48;90].  (* 20000229000000Z *)
Proof. vm_compute. reflexivity. Qed.
Example enc_time_min : enc_time time_min = [48;48;48;49;48;49;48;49;48;48;48;48;48;48;90].    (* 00010101000000Z *)
Proof. vm_compute. reflexivity. Qed.
Example enc_time_max : enc_time time_max = [57;57;57;57;49;50;51;49;50;51;53;57;53;57;90].    (* 99991231235959Z *)
Proof. vm_compute. reflexivity. Qed.
Example dec_time_rejects_feb30 : dec_time [50;48;48;48;48;50;51;48;48;48;48;48;48;48;90] = None.
Proof. vm_compute. reflexivity. Qed.
Example dec_time_rejects_feb29_1900 : dec_time [49;57;48;48;48;50;50;57;48;48;48;48;48;48;90] = None.
Proof. vm_compute. reflexivity. Qed.

Lemma days_of_civil_spec y m d : 1 <= m <= 12 -> 1 <= d <= days_in_month y m ->
  civil_of_days (days_of_civil y m d) = (y, m, d)
  /\ (1 <= y <= 9999 -> -719162 <= days_of_civil y m d <= 2932896).
Proof.
  intros Hm Hd. unfold days_of_civil, civil_of_days.
  set (y' := if m <=? 2 then y - 1 else y).
  assert (Hy' : y' = 400 * (y' / 400) + y' mod 400) by lia.
  assert (Hyoe : 0 <= y' mod 400 < 400) by lia.
  set (era := y' / 400) in *. set (yoe := y' mod 400) in *.
  set (a := if m <=? 2 then yoe + 1 else yoe).
  assert (Ha : y = a + era * 400) by (unfold a, y' in *; destruct (m <=? 2); lia).
  rewrite Ha in Hd. rewrite days_in_month_period in Hd.
  destruct (doe_of_civil_spec yoe m d a Hyoe Hm eq_refl Hd) as (Hr & C & Hlo & Hhi).
  set (doe := doe_of_civil yoe m d) in *.
  replace (era * 146097 + doe - 719468 + 719468) with (era * 146097 + doe) by lia.
  replace ((era * 146097 + doe) / 146097) with era by lia.
  replace ((era * 146097 + doe) mod 146097) with doe by lia.
  assert (0 <= a <= 400) by (unfold a; destruct (m <=? 2); lia).
  rewrite C. split; [congruence | lia].
Qed.

Lemma num2_ok a b : is_digit a = true -> is_digit b = true ->
  0 <= num2 a b <= 99 /\ dig2 (num2 a b) = [a; b].
Proof. unfold is_digit, dig2, num2. intros Ha Hb. split; [lia|]. f_equal; [|f_equal]; lia. Qed.

Lemma num4_ok a b c d : is_digit a = true -> is_digit b = true -> is_digit c = true -> is_digit d = true ->
  0 <= num4 a b c d <= 9999 /\ dig4 (num4 a b c d) = [a; b; c; d].
Proof.
  unfold is_digit, dig4, num4. intros Ha Hb Hc Hd. split; [lia|]. f_equal; [|f_equal; [|f_equal; [|f_equal]]]; lia.
Qed.

Theorem dec_time_canon b secs : dec_time b = Some secs -> enc_time secs = b /\ time_ok secs = true.
Proof.
  destruct b as [|y1 [|y2 [|y3 [|y4 [|m1 [|m2 [|d1 [|d2 [|h1 [|h2 [|n1 [|n2 [|s1 [|s2 [|zz [|? ?]]]]]]]]]]]]]]]];
    cbn [dec_time]; try discriminate.
  destruct (forallb is_digit [y1; y2; y3; y4; m1; m2; d1; d2; h1; h2; n1; n2; s1; s2] && (zz =? 90)) eqn:D;
    [|discriminate].
  cbv zeta. cbn [forallb] in D. split_andb.
  destruct (num4_ok y1 y2 y3 y4) as [Ry Ey]; try assumption.
  destruct (num2_ok m1 m2) as [Rm Em]; try assumption. destruct (num2_ok d1 d2) as [Rd Ed]; try assumption.
  destruct (num2_ok h1 h2) as [Rh Eh]; try assumption. destruct (num2_ok n1 n2) as [Rn En]; try assumption.
  destruct (num2_ok s1 s2) as [Rs Es]; try assumption.
  set (y := num4 y1 y2 y3 y4) in *. set (m := num2 m1 m2) in *. set (d := num2 d1 d2) in *.
  set (h := num2 h1 h2) in *. set (n := num2 n1 n2) in *. set (s := num2 s1 s2) in *.
  destruct (date_ok y m d h n s) eqn:Ok; [|discriminate].
  intros E. assert (Es' : time_of_fields y m d h n s = secs) by congruence. clear E.
  unfold date_ok in Ok. split_andb.
  destruct (days_of_civil_spec y m d ltac:(lia) ltac:(lia)) as [Hc Hrange].
  specialize (Hrange ltac:(lia)).
  unfold time_of_fields in Es'. set (D := days_of_civil y m d) in *.
  split.
  - unfold enc_time.
    replace (secs / 86400) with D by lia. rewrite Hc.
    replace (secs mod 86400 / 3600) with h by lia.
    replace (secs mod 86400 / 60 mod 60) with n by lia.
    replace (secs mod 86400 mod 60) with s by lia.
    rewrite Ey, Em, Ed, Eh, En, Es. cbn [app]. repeat f_equal. lia.
  - unfold time_ok, time_min, time_max. lia.
Qed.
