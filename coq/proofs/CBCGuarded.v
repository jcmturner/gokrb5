(* The concatenation of byte strings is a byte string (the name of the fact in the CBC proofs). *)
From Gokrb5.lib Require Import Bytes.

Lemma wf_concat (ls : list bytes) : Forall wf_bytes ls -> wf_bytes (concat ls).
Proof. apply concat_wf. Qed.
