(* Totality of the PAC model (repaired code): no Go panic and no allocation above the input length
   for any byte string.  Allocation is part of the statement because every `make(n)` with an
   input-derived n is `galloc site (zlen pac) n`, which is a Panic when n exceeds the length of the PAC. *)
From Gokrb5.lib Require Import Bytes.
From Gokrb5.model Require Import Crypto PAC.
From Gokrb5.proofs Require Import PACAccept.

Lemma wf_slice l lo hi : wf_bytes l -> wf_bytes (slice l lo hi).
Proof. apply Bytes.wf_slice. Qed.

Definition nopanic {A} (r : res A) : Prop := is_panic r = false.

Lemma read_le_no_panic w r : nopanic (read_le w r).
Proof. unfold read_le. destruct (length r <? w)%nat; reflexivity. Qed.

(* sizes and offsets read from bytes are not negative: the two `make` of the loop and its slice
   expressions can only fail on the upper side, which the bounds test excludes *)
Definition buf_nonneg (b : info_buffer) : Prop := 0 <= ib_size b /\ 0 <= ib_off b.

Lemma table_at_nonneg b n : wf_bytes b -> Forall buf_nonneg (table_at b n).
Proof.
  intros W. unfold table_at. apply Forall_forall. intros e H. apply in_map_iff in H. destruct H as (i & <- & _).
  split; apply le_val_nonneg, wf_firstn, wf_skipn, W.
Qed.

Lemma pac_unmarshal_nopanic b : wf_bytes b -> nopanic (pac_unmarshal b).
Proof.
  intros W. rewrite pac_unmarshal_eq.
  destruct (zlen b <? 8); [reflexivity|]. destruct (zlen b - 8 <? cbuffers b * 16); [reflexivity|].
  destruct (Z.ltb_spec (cbuffers b) 0) as [H|_]; [|reflexivity].
  pose proof (le_val_nonneg _ (wf_firstn 4 b W)). unfold cbuffers in H. lia.
Qed.

Lemma read_u16s_nopanic r : forall cnt, nopanic (read_u16s r cnt).
Proof.
  induction r as [|a|a b r IH] using list_ind2; intros cnt; cbn [read_u16s]; destruct (cnt <=? 0); try reflexivity.
  apply bind_no_panic; [apply IH|intros; reflexivity].
Qed.

Lemma client_info_nopanic p : nopanic (client_info_unmarshal p).
Proof.
  unfold client_info_unmarshal.
  apply bind_no_panic; [apply read_le_no_panic|intros [lo r1] _].
  apply bind_no_panic; [apply read_le_no_panic|intros [hi r2] _].
  apply bind_no_panic; [apply read_le_no_panic|intros [nl r3] _].
  apply bind_no_panic; [apply read_u16s_nopanic|intros us _]. reflexivity.
Qed.

Lemma fill_sig_nopanic data st it cur set : bounds_ok data it -> nopanic (fill_sig data st it cur set).
Proof.
  intros B. unfold fill_sig. destruct cur; [reflexivity|].
  rewrite sig_unmarshal_eq by (apply buf_bytes_le, B). destruct (sig_short (buf_bytes data it)); reflexivity.
Qed.

Lemma step_nopanic data st it : buf_nonneg (it_buf it) -> zlen (st_zsd st) = zlen data -> nopanic (step data st it).
Proof.
  intros [Hs Ho] Hz. destruct (Z.lt_ge_cases (zlen data) (ioff it + isize it)) as [F|F].
  { rewrite step_far by exact F. reflexivity. }
  assert (B : bounds_ok data it) by (unfold bounds_ok, ioff, isize in *; lia).
  rewrite step_eq by assumption. unfold step_nf.
  destruct (ity it =? 1). { destruct (st_kvi st); [reflexivity|]. destruct (it_ok it); reflexivity. }
  destruct (ity it =? 2); [reflexivity|].
  destruct (ity it =? 6); [apply fill_sig_nopanic, B|].
  destruct (ity it =? 7); [apply fill_sig_nopanic, B|].
  destruct (ity it =? 10).
  { destruct (st_ci st); [reflexivity|]. apply bind_no_panic; [apply client_info_nopanic|reflexivity]. }
  destruct (is_optional (ity it)); [|reflexivity].
  destruct (has_opt _ _ || _); [reflexivity|]. destruct (it_ok it); reflexivity.
Qed.

Lemma process_loop_nopanic data its st :
  Forall buf_nonneg (map it_buf its) -> zlen (st_zsd st) = zlen data -> nopanic (process_loop data its st).
Proof.
  revert st; induction its as [|it its IH]; intros st H Hz; cbn [process_loop]; [reflexivity|].
  inversion H as [|? ? Hit Hits]; subst.
  apply bind_no_panic; [apply step_nopanic; assumption|intros st' S].
  apply IH; [exact Hits|exact (step_zlen _ _ _ _ Hz S)].
Qed.

Lemma pac_verify_nopanic key st : nopanic (pac_verify key st).
Proof.
  unfold pac_verify.
  destruct (st_kvi st); [|reflexivity]. destruct (st_srv st); [|reflexivity].
  destruct (st_kdc st); [|reflexivity]. destruct (st_ci st); [|reflexivity].
  destruct (etype_of_chksum_type _); [|reflexivity].
  destruct (verify_checksum _ _ _ _ _); reflexivity.
Qed.

(* For every byte string, every key and every outcome of the external decoders: no Go panic (slice or
   index out of range) and no `make` larger than the PAC itself. *)
Theorem pac_total data key dec : wf_bytes data -> is_panic (pac_process data key dec) = false.
Proof.
  intros W. unfold pac_process.
  apply bind_no_panic; [apply pac_unmarshal_nopanic, W|intros pt E].
  apply pac_unmarshal_iff in E. destruct E as [_ ->]. cbn [pt_buffers].
  apply bind_no_panic.
  { apply process_loop_nopanic; [|reflexivity]. rewrite annotate_bufs. apply table_at_nonneg, W. }
  intros st _. apply bind_no_panic; [apply pac_verify_nopanic|intros; reflexivity].
Qed.

(* the buffer count is checked against the input size before the table is allocated *)
Theorem pac_table_alloc_bounded data pt :
  pac_unmarshal data = Ok pt ->
  16 * pt_cbuffers pt <= zlen data - 8 /\ zlen (pt_buffers pt) = pt_cbuffers pt.
Proof.
  intros E. apply pac_unmarshal_iff in E. destruct E as [(_ & H0 & H16) ->]. cbn [pt_cbuffers pt_buffers].
  split; [exact H16|]. unfold table_at, zlen. rewrite map_length, seq_length. lia.
Qed.

(* satisfiable: an 8 byte header that declares 2^32-1 buffers is an error, not a 96 GiB allocation *)
Example huge_count_is_error : pac_process [255;255;255;255;0;0;0;0] [] [] = Err 2.
Proof. reflexivity. Qed.

(* a table entry pointing outside the PAC is an error, not a slice panic *)
Example offset_outside_is_error :
  pac_process ([1;0;0;0; 0;0;0;0] ++ [1;0;0;0; 4;0;0;0; 0;16;0;0;0;0;0;0]) [] [] = Err 10.
Proof. reflexivity. Qed.
