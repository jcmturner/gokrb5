(* C01 in bytes mode (model/APReqBytes.v): the Go decoders of the envelope and of the two encrypted parts invert the
   RFC 4120 DER encoding (DERCodec.encode, the hand-written RFC schemas) whatever follows the value; hence on the wire
   bytes of a well-formed AP-REQ the verdict is that of the sealed-content model of model/APReq.v, about which C01's
   acceptance theorems speak; a plaintext EncTicketPart travelling after enc-part changes nothing. *)
From Coq Require Import ZifyBool.
From Gokrb5.lib Require Import Bytes JV.
From Gokrb5.model Require Import Keytab Crypto Replay Schema DER DERCodec RFCSchemas GoASN1 APReq APReqBytes.
From Gokrb5.proofs Require Import DERBasic DERProofs GoASN1Proofs APReqProofs.

Lemma erase_EncTicketPart : TApp 3 (erase go_EncTicketPart) = rfc_EncTicketPart.
Proof. reflexivity. Qed.
Lemma erase_Authenticator : TApp 2 (erase go_Authenticator) = rfc_Authenticator.
Proof. reflexivity. Qed.
Lemma erase_Ticket_fields : TApp 1 (TSeq (erase_fields go_Ticket_fields)) = rfc_Ticket.
Proof. reflexivity. Qed.
(* marshalAPReq: the RFC type with the ticket taken as one raw element *)
Definition env_APReq : ty :=
  TApp 14 (TSeq [req 0 TInt; req 1 TInt; req 2 TBits; req 3 TRaw; req 4 rfc_EncryptedData]).
Lemma erase_marshalAPReq : TApp 14 (erase go_marshalAPReq) = env_APReq.
Proof. reflexivity. Qed.

Lemma gok_EncTicketPart : gok go_EncTicketPart = true.
Proof. vm_compute. reflexivity. Qed.
Lemma gok_Authenticator : gok go_Authenticator = true.
Proof. vm_compute. reflexivity. Qed.
Lemma gok_marshalAPReq : gok go_marshalAPReq = true.
Proof. vm_compute. reflexivity. Qed.
Lemma gok_Ticket_fields : gfields_ok gok go_Ticket_fields = true /\ ends_mand go_Ticket_fields = true.
Proof. split; vm_compute; reflexivity. Qed.

Theorem dec_ticket_der_value v pt rest :
  wfg go_EncTicketPart v = true -> encode rfc_EncTicketPart v = Some pt -> zlen pt < 2 ^ 31 ->
  dec_ticket_der (pt ++ rest) = proj_enc_ticket v.
Proof.
  intros Hw He Hl. apply encode_some in He. destruct He as [_ ->]. rewrite <- erase_EncTicketPart in *.
  unfold dec_ticket_der. rewrite unmarshal_app_enc; auto using gok_EncTicketPart. discriminate.
Qed.

Theorem dec_auth_der_value v pt rest :
  wfg go_Authenticator v = true -> encode rfc_Authenticator v = Some pt -> zlen pt < 2 ^ 31 ->
  dec_auth_der (pt ++ rest) = proj_authenticator v.
Proof.
  intros Hw He Hl. apply encode_some in He. destruct He as [_ ->]. rewrite <- erase_Authenticator in *.
  unfold dec_auth_der. rewrite unmarshal_app_enc; auto using gok_Authenticator. discriminate.
Qed.

(* injections of the records of APReq.v into RFC values *)
Definition int32_ok (z : Z) : bool := (- 2 ^ (8 * 4 - 1) <=? z) && (z <? 2 ^ (8 * 4 - 1)).
Definition int64_ok (z : Z) : bool := (- 2 ^ (8 * 8 - 1) <=? z) && (z <? 2 ^ (8 * 8 - 1)).

Definition inj_pname (ntype : Z) (names : list bytes) : value :=
  VSeq [Some (VInt ntype); Some (VList (map VBytes names))].
Definition inj_addr (a : Z * bytes) : value := VSeq [Some (VInt (fst a)); Some (VBytes (snd a))].
(* gofork omits an optional kvno that is zero *)
Definition inj_encdata (et kvno : Z) (c : bytes) : value :=
  VSeq [Some (VInt et); (if kvno =? 0 then None else Some (VInt kvno)); Some (VBytes c)].

(* fields the record does not carry: transited = (0, ""), authtime = the epoch, no renew-till, no authorization-data;
   an empty caddr is omitted (as gofork does) *)
Definition inject_enc_ticket (et : enc_ticket) : value :=
  VSeq [Some (VBits 0 (et_flags et));
        Some (VSeq [Some (VInt (et_keytype et)); Some (VBytes (et_key et))]);
        Some (VBytes (et_crealm et));
        Some (inj_pname 1 (et_cname et));
        Some (VSeq [Some (VInt 0); Some (VBytes [])]);
        Some (VTime 0);
        match et_start et with Some s => Some (VTime s) | None => None end;
        Some (VTime (et_end et));
        None;
        match et_caddr et with [] => None | _ :: _ => Some (VList (map inj_addr (et_caddr et))) end;
        None].

Definition wf_enc_ticket (et : enc_ticket) : bool :=
  wf_bytesb (et_flags et) && int32_ok (et_keytype et) && wf_bytesb (et_key et) && wf_bytesb (et_crealm et)
  && forallb wf_bytesb (et_cname et)
  && (match et_start et with Some s => time_ok s | None => true end) && time_ok (et_end et)
  && forallb (fun a => int32_ok (fst a) && wf_bytesb (snd a)) (et_caddr et).

(* authenticator-vno 5, no checksum, subkey, sequence number, authorization-data *)
Definition inject_authenticator (au : authenticator) : value :=
  VSeq [Some (VInt 5); Some (VBytes (au_crealm au)); Some (inj_pname 1 (au_cname au)); None;
        Some (VInt (au_cusec au)); Some (VTime (au_ctime au)); None; None; None].

(* cusec * 1000 nanoseconds fit an int64 (no wrap-around in time.Duration) *)
Definition cusec_ok (cu : Z) : bool := (- 2 ^ 63 <=? cu * 1000) && (cu * 1000 <? 2 ^ 63).

Definition wf_authenticator (au : authenticator) : bool :=
  wf_bytesb (au_crealm au) && forallb wf_bytesb (au_cname au) && int64_ok (au_cusec au) && time_ok (au_ctime au)
  && cusec_ok (au_cusec au).

Definition inject_ticket (tk : ticket) : value :=
  VSeq [Some (VInt 5); Some (VBytes (tk_realm tk)); Some (inj_pname 2 (tk_sname tk));
        Some (inj_encdata (tk_etype tk) (tk_kvno tk) (tk_cipher tk))].

(* pvno 5, msg-type 14, ap-options 32 zero bits, the authenticator sealed without kvno *)
Definition inject_apreq (tk : ticket) (aet : Z) (ac : bytes) : value :=
  VSeq [Some (VInt 5); Some (VInt 14); Some (VBits 0 [0; 0; 0; 0]); Some (inject_ticket tk);
        Some (inj_encdata aet 0 ac)].

Definition wf_apreq (tk : ticket) (aet : Z) (ac : bytes) : bool :=
  wf_bytesb (tk_realm tk) && forallb wf_bytesb (tk_sname tk) && int32_ok (tk_etype tk) && int64_ok (tk_kvno tk)
  && wf_bytesb (tk_cipher tk) && int32_ok aet && wf_bytesb ac.

Lemma map_opt_v_bytes l : map_opt v_bytes (map VBytes l) = Some l.
Proof. apply map_opt_map. reflexivity. Qed.

Lemma p_names_inj t l : p_names (inj_pname t l) = Some l.
Proof. unfold p_names, inj_pname. cbn [rfld fld nth_error obind v_list]. apply map_opt_v_bytes. Qed.

Lemma map_opt_hostaddr l : map_opt p_hostaddr (map inj_addr l) = Some l.
Proof. apply map_opt_map. intros [t a]. reflexivity. Qed.

Lemma p_encdata_inj et kv c : p_encdata (inj_encdata et kv c) = Some (et, kv, c).
Proof.
  unfold p_encdata, inj_encdata. cbn [rfld fld nth_error obind v_int v_bytes].
  destruct (Z.eqb_spec kv 0) as [->|]; reflexivity.
Qed.

Lemma proj_inject_enc_ticket et : proj_enc_ticket (inject_enc_ticket et) = Some et.
Proof.
  destruct et as [fl kt kv cr cn st en ca]. unfold proj_enc_ticket, inject_enc_ticket.
  cbn [et_flags et_keytype et_key et_crealm et_cname et_start et_end et_caddr].
  cbn [rfld fld nth_error obind v_int v_bytes v_time]. rewrite p_names_inj. cbn [obind].
  destruct st as [s|]; cbn [obind option_map v_time]; (destruct ca as [|a ca]; cbn [obind v_list map_opt];
    [reflexivity | rewrite (map_opt_hostaddr (a :: ca)); reflexivity]).
Qed.

Lemma cusec_go_id cu : cusec_ok cu = true -> cusec_go cu = cu.
Proof.
  unfold cusec_ok, cusec_go. intros H. apply andb_true_iff in H. destruct H as [H1 H2].
  rewrite sint_id; [apply Z.div_mul; lia | lia | change (2 ^ (64 - 1)) with (2 ^ 63); lia].
Qed.

Lemma proj_inject_authenticator au : cusec_ok (au_cusec au) = true ->
  proj_authenticator (inject_authenticator au) = Some au.
Proof.
  destruct au as [cr cn ct cu]. unfold proj_authenticator, inject_authenticator.
  cbn [au_crealm au_cname au_ctime au_cusec]. intros Hcu. cbn [rfld fld nth_error obind v_int v_bytes v_time].
  rewrite p_names_inj. cbn [obind]. rewrite (cusec_go_id cu Hcu). reflexivity.
Qed.

Lemma forallb_map_imp {A B} (p : A -> bool) (q : B -> bool) (g : A -> B) l :
  (forall a, p a = true -> q (g a) = true) -> forallb p l = true -> forallb q (map g l) = true.
Proof.
  intros H. rewrite !forallb_forall. intros Hp b Hb. apply in_map_iff in Hb. destruct Hb as (a & <- & Ha). auto.
Qed.

Lemma wf_val_pname t l : forallb wf_bytesb l = true -> wf_val rfc_PrincipalName (inj_pname t l) = true.
Proof.
  intros H. unfold rfc_PrincipalName, inj_pname, req. cbn [wf_val wf_fields].
  rewrite forallb_map_imp with (p := wf_bytesb); auto.
Qed.

Lemma wfg_pname t l : int32_ok t = true -> wfg go_PrincipalName (inj_pname t l) = true.
Proof.
  intros H. unfold go_PrincipalName, inj_pname, greq. cbn [wfg wfg_fields]. unfold int32_ok in H. rewrite H.
  rewrite forallb_map_imp with (p := fun _ => true); auto. clear. induction l; auto.
Qed.

Lemma wf_val_addrs l : forallb (fun a => int32_ok (fst a) && wf_bytesb (snd a)) l = true ->
  forallb (wf_val rfc_HostAddress) (map inj_addr l) = true.
Proof.
  apply forallb_map_imp. intros [t a] H. cbn [fst snd] in H. apply andb_true_iff in H. destruct H as [_ H].
  unfold rfc_HostAddress, inj_addr, req. cbn [wf_val wf_fields fst snd]. rewrite H. reflexivity.
Qed.

Lemma wfg_addrs l : forallb (fun a => int32_ok (fst a) && wf_bytesb (snd a)) l = true ->
  forallb (wfg go_HostAddress) (map inj_addr l) = true.
Proof.
  apply forallb_map_imp. intros [t a] H. cbn [fst snd] in H. apply andb_true_iff in H. destruct H as [H _].
  unfold go_HostAddress, inj_addr, greq. cbn [wfg wfg_fields fst snd]. unfold int32_ok in H. rewrite H. reflexivity.
Qed.

Lemma gbits_ok_0 b : gbits_ok 0 b = true.
Proof. unfold gbits_ok. change (2 ^ 0) with 1. rewrite Z.mod_1_r. destruct b; reflexivity. Qed.

Lemma bits_ok_0 b : bits_ok 0 b = true.
Proof. unfold bits_ok. destruct b; reflexivity. Qed.

Lemma wf_enc_ticket_value et : wf_enc_ticket et = true ->
  wf_val rfc_EncTicketPart (inject_enc_ticket et) = true /\ wfg go_EncTicketPart (inject_enc_ticket et) = true.
Proof.
  destruct et as [fl kt kv cr cn st en ca]. unfold wf_enc_ticket, inject_enc_ticket.
  cbn [et_flags et_keytype et_key et_crealm et_cname et_start et_end et_caddr]. intros H.
  repeat rewrite andb_true_iff in H. destruct H as (((((((Hfl & Hkt) & Hkv) & Hcr) & Hcn) & Hst) & Hen) & Hca).
  split.
  - unfold rfc_EncTicketPart, rfc_EncryptionKey, rfc_TransitedEncoding, rfc_HostAddresses, req, opt.
    cbn [wf_val wf_fields]. rewrite bits_ok_0, Hfl, Hkv, Hcr, Hen, (wf_val_pname 1 cn Hcn).
    destruct st as [s|]; [rewrite Hst|]; (destruct ca as [|a ca]; [reflexivity|]);
      cbn [wf_val]; rewrite (wf_val_addrs (a :: ca) Hca); reflexivity.
  - unfold go_EncTicketPart, go_EncryptionKey, go_TransitedEncoding, greq, gopt.
    cbn [wfg wfg_fields]. rewrite gbits_ok_0, Hen, (wfg_pname 1 cn eq_refl).
    unfold int32_ok in Hkt. rewrite Hkt.
    destruct st as [s|]; [rewrite Hst|]; (destruct ca as [|a ca]; [reflexivity|]);
      cbn [wfg]; rewrite (wfg_addrs (a :: ca) Hca); reflexivity.
Qed.

Lemma wf_authenticator_value au : wf_authenticator au = true ->
  wf_val rfc_Authenticator (inject_authenticator au) = true /\ wfg go_Authenticator (inject_authenticator au) = true.
Proof.
  destruct au as [cr cn ct cu]. unfold wf_authenticator, inject_authenticator.
  cbn [au_crealm au_cname au_ctime au_cusec]. intros H.
  repeat rewrite andb_true_iff in H. destruct H as ((((Hcr & Hcn) & Hcu) & Hct) & _).
  split.
  - unfold rfc_Authenticator, req, opt. cbn [wf_val wf_fields]. rewrite Hcr, Hct, (wf_val_pname 1 cn Hcn). reflexivity.
  - unfold go_Authenticator, greq, gopt. cbn [wfg wfg_fields]. rewrite Hct, (wfg_pname 1 cn eq_refl).
    unfold int64_ok in Hcu. rewrite Hcu. reflexivity.
Qed.

(* the round trips of the two decoders: every well-formed sealed content, DER-encoded with the RFC 4120 type and
   followed by anything (zero padding of des3, garbage), is decoded to itself *)
Theorem dec_ticket_der_encode et pt rest :
  wf_enc_ticket et = true -> encode rfc_EncTicketPart (inject_enc_ticket et) = Some pt -> zlen pt < 2 ^ 31 ->
  dec_ticket_der (pt ++ rest) = Some et.
Proof.
  intros Hw He Hl. destruct (wf_enc_ticket_value et Hw) as [_ Hg].
  rewrite (dec_ticket_der_value _ _ _ Hg He Hl). apply proj_inject_enc_ticket.
Qed.

Theorem dec_auth_der_encode au pt rest :
  wf_authenticator au = true -> encode rfc_Authenticator (inject_authenticator au) = Some pt -> zlen pt < 2 ^ 31 ->
  dec_auth_der (pt ++ rest) = Some au.
Proof.
  intros Hw He Hl. destruct (wf_authenticator_value au Hw) as [_ Hg].
  rewrite (dec_auth_der_value _ _ _ Hg He Hl). apply proj_inject_authenticator.
  unfold wf_authenticator in Hw. apply andb_true_iff in Hw. apply Hw.
Qed.

Lemma encode_enc_ticket_total et : wf_enc_ticket et = true ->
  exists pt, encode rfc_EncTicketPart (inject_enc_ticket et) = Some pt.
Proof. intros H. apply encode_total, (wf_enc_ticket_value et H). Qed.

Lemma encode_authenticator_total au : wf_authenticator au = true ->
  exists pt, encode rfc_Authenticator (inject_authenticator au) = Some pt.
Proof. intros H. apply encode_total, (wf_authenticator_value au H). Qed.

Definition ticket_fields_val (tk : ticket) : list (option value) :=
  [Some (VInt 5); Some (VBytes (tk_realm tk)); Some (inj_pname 2 (tk_sname tk));
   Some (inj_encdata (tk_etype tk) (tk_kvno tk) (tk_cipher tk))].

(* the wire form of a Ticket, optionally with an unsealed EncTicketPart SEQUENCE after enc-part *)
Definition ticket_wire (tk : ticket) (tr : option value) : bytes :=
  tlv (ident 1 true 1)
      (tlv id_seq (enc_fields enc (erase_fields go_Ticket_fields) (ticket_fields_val tk)
                   ++ trailer_bytes go_EncTicketPart tr)).

(* the wire form of an AP-REQ around ticket octets tb *)
Definition apreq_wire (tb : bytes) (aet : Z) (ac : bytes) : bytes :=
  enc env_APReq (VSeq [Some (VInt 5); Some (VInt 14); Some (VBits 0 [0; 0; 0; 0]); Some (VBytes tb);
                       Some (inj_encdata aet 0 ac)]).

Lemma ticket_wire_none tk : ticket_wire tk None = enc rfc_Ticket (inject_ticket tk).
Proof. unfold ticket_wire. cbn [trailer_bytes]. rewrite app_nil_r. reflexivity. Qed.

(* without a trailer this is the RFC 4120 encoding of the AP-REQ *)
Lemma apreq_wire_rfc tk aet ac : apreq_wire (ticket_wire tk None) aet ac = enc rfc_APReq (inject_apreq tk aet ac).
Proof. rewrite ticket_wire_none. reflexivity. Qed.

Lemma wf_ticket_fields tk aet ac : wf_apreq tk aet ac = true ->
  wfg_fields wfg go_Ticket_fields (ticket_fields_val tk) = true /\ wfg go_EncryptedData (inj_encdata aet 0 ac) = true.
Proof.
  destruct tk as [re sn et kv c]. unfold wf_apreq, ticket_fields_val.
  cbn [tk_realm tk_sname tk_etype tk_kvno tk_cipher]. intros H.
  repeat rewrite andb_true_iff in H. destruct H as ((((((Hre & Hsn) & Het) & Hkv) & Hc) & Haet) & Hac).
  unfold int32_ok, int64_ok in *. split.
  - unfold go_Ticket_fields, go_EncryptedData, inj_encdata, greq, gopt. cbn [wfg_fields wfg].
    rewrite (wfg_pname 2 sn eq_refl), Het. destruct (kv =? 0); [reflexivity | rewrite Hkv; reflexivity].
  - unfold go_EncryptedData, inj_encdata, greq, gopt. cbn [wfg_fields wfg Z.eqb]. rewrite Haet. reflexivity.
Qed.

Lemma proj_ticket_fields tk tr : proj_ticket (VSeq (ticket_fields_val tk ++ [tr])) = Some tk.
Proof.
  destruct tk as [re sn et kv c]. unfold proj_ticket, ticket_fields_val.
  cbn [tk_realm tk_sname tk_etype tk_kvno tk_cipher app]. cbn [rfld fld nth_error obind v_bytes].
  rewrite p_names_inj. cbn [obind]. rewrite p_encdata_inj. reflexivity.
Qed.

(* Ticket.Unmarshal on the wire form, with or without the unsealed trailer *)
Lemma unmarshal_ticket_wire tk aet ac tr rest :
  wf_apreq tk aet ac = true -> (match tr with Some tv => wfg go_EncTicketPart tv = true | None => True end) ->
  zlen (ticket_wire tk tr) < 2 ^ 31 ->
  unmarshal_app 1 go_Ticket (ticket_wire tk tr ++ rest) = Some (VSeq (ticket_fields_val tk ++ [tr])).
Proof.
  intros Hwf Htr Hlen. destruct (wf_ticket_fields tk aet ac Hwf) as [Hf _]. destruct gok_Ticket_fields as [Hok He].
  unfold unmarshal_app, ticket_wire in *.
  match goal with |- context [gfield_dec ?d 1 (Some 1) false go_Ticket ?b] => change d with (D (S (length b))) end.
  set (body := tlv id_seq (enc_fields enc (erase_fields go_Ticket_fields) (ticket_fields_val tk) ++ trailer_bytes go_EncTicketPart tr)) in *.
  assert (Hfit : fits31 (S (length (tlv (ident 1 true 1) body ++ rest))) (tlv (ident 1 true 1) body)).
  { split; [exact Hlen|]. unfold zlen. rewrite app_length. lia. }
  rewrite (gfield_explicit_gen _ 1 1 false go_Ticket (VSeq (ticket_fields_val tk ++ [tr])) body rest); auto.
  - discriminate.
  - unfold body. apply tlv_nonempty.
  - unfold body, go_Ticket. apply grt_trailer; auto using gok_EncTicketPart.
    + discriminate.
    + apply fits31_tlv in Hfit. exact Hfit.
Qed.

Lemma raw_ok_ticket_wire tk tr : zlen (ticket_wire tk tr) < 2 ^ 31 ->
  match parse_tlv (ticket_wire tk tr) with Some (_, _, []) => true | _ => false end = true.
Proof.
  intros H. unfold ticket_wire in *. rewrite <- (app_nil_r (tlv (ident 1 true 1) _)).
  rewrite parse_tlv_tlv; [reflexivity | vm_compute; discriminate |].
  match goal with |- zlen ?b < _ => pose proof (zlen_tlv (ident 1 true 1) b) end. lia.
Qed.

Lemma zlen_ticket_in_apreq tb aet ac : zlen tb < zlen (apreq_wire tb aet ac).
Proof.
  unfold apreq_wire, env_APReq, req. cbn [enc enc_fields wrap_tag].
  match goal with |- _ < zlen (tlv ?a (tlv ?s (?f0 ++ ?f1 ++ ?f2 ++ tlv ?t tb ++ ?f4))) =>
    pose proof (zlen_tlv a (tlv s (f0 ++ f1 ++ f2 ++ tlv t tb ++ f4)));
    pose proof (zlen_tlv s (f0 ++ f1 ++ f2 ++ tlv t tb ++ f4));
    pose proof (zlen_tlv t tb);
    pose proof (zlen_nonneg f0); pose proof (zlen_nonneg f1); pose proof (zlen_nonneg f2); pose proof (zlen_nonneg f4);
    rewrite !zlen_app in *
  end.
  lia.
Qed.

Lemma wfg_envelope tk tr aet ac : wf_apreq tk aet ac = true -> zlen (ticket_wire tk tr) < 2 ^ 31 ->
  wfg go_marshalAPReq (VSeq [Some (VInt 5); Some (VInt 14); Some (VBits 0 [0; 0; 0; 0]);
                             Some (VBytes (ticket_wire tk tr)); Some (inj_encdata aet 0 ac)]) = true.
Proof.
  intros Hwf Hl. destruct (wf_ticket_fields tk aet ac Hwf) as [_ He].
  unfold go_marshalAPReq, greq. cbn [wfg wfg_fields]. rewrite He, (raw_ok_ticket_wire tk tr Hl). reflexivity.
Qed.

(* APReq.Unmarshal on the wire form: the cleartext ticket, the authenticator's etype and cipher — with or without
   an unsealed trailer inside the ticket, whatever follows the message *)
Theorem parse_apreq_wire tk aet ac tr rest :
  wf_apreq tk aet ac = true -> (match tr with Some tv => wfg go_EncTicketPart tv = true | None => True end) ->
  zlen (apreq_wire (ticket_wire tk tr) aet ac) < 2 ^ 31 ->
  parse_apreq (apreq_wire (ticket_wire tk tr) aet ac ++ rest) = Some (tk, aet, ac).
Proof.
  intros Hwf Htr Hlen.
  assert (Hlt : zlen (ticket_wire tk tr) < 2 ^ 31) by (pose proof (zlen_ticket_in_apreq (ticket_wire tk tr) aet ac); lia).
  unfold parse_apreq, apreq_wire in *. rewrite <- erase_marshalAPReq in *.
  rewrite unmarshal_app_enc; auto using gok_marshalAPReq, wfg_envelope; [|discriminate].
  cbn [obind rfld fld nth_error v_int v_bytes]. change (negb (14 =? msg_type_ap_req)) with false. cbn iota.
  rewrite <- (app_nil_r (ticket_wire tk tr)).
  rewrite (unmarshal_ticket_wire tk aet ac tr []); auto. cbn [obind].
  rewrite proj_ticket_fields. cbn [obind]. rewrite p_encdata_inj. reflexivity.
Qed.

Theorem parse_apreq_encode tk aet ac wire rest :
  wf_apreq tk aet ac = true -> encode rfc_APReq (inject_apreq tk aet ac) = Some wire -> zlen wire < 2 ^ 31 ->
  parse_apreq (wire ++ rest) = Some (tk, aet, ac).
Proof.
  intros Hwf He Hl. apply encode_some in He. destruct He as [_ ->]. rewrite <- apreq_wire_rfc in *.
  apply (parse_apreq_wire tk aet ac None); auto.
Qed.

Lemma wf_val_encdata et kv c : wf_bytesb c = true -> wf_val rfc_EncryptedData (inj_encdata et kv c) = true.
Proof.
  intros H. unfold rfc_EncryptedData, inj_encdata, req, opt. cbn [wf_val wf_fields]. rewrite H.
  destruct (kv =? 0); reflexivity.
Qed.

Lemma wf_apreq_value tk aet ac : wf_apreq tk aet ac = true -> wf_val rfc_APReq (inject_apreq tk aet ac) = true.
Proof.
  destruct tk as [re sn et kv c]. unfold wf_apreq, inject_apreq, inject_ticket.
  cbn [tk_realm tk_sname tk_etype tk_kvno tk_cipher]. intros H.
  repeat rewrite andb_true_iff in H. destruct H as ((((((Hre & Hsn) & Het) & Hkv) & Hc) & Haet) & Hac).
  unfold rfc_APReq, rfc_Ticket, req. cbn [wf_val wf_fields].
  rewrite Hre, (wf_val_pname 2 sn Hsn), (wf_val_encdata et kv c Hc), (wf_val_encdata aet 0 ac Hac). reflexivity.
Qed.

Lemma encode_apreq_total tk aet ac : wf_apreq tk aet ac = true ->
  exists wire, encode rfc_APReq (inject_apreq tk aet ac) = Some wire.
Proof. intros H. apply encode_total, (wf_apreq_value _ _ _ H). Qed.

Lemma verify_apreq_decoders_ext dt dt' da da' st kt t rc tk aet ac :
  (forall kv ktype kvno pt,
     get_key kt (match st_override st with Some o => o | None => tk_sname tk end)
             (tk_realm tk) (tk_kvno tk) (tk_etype tk) = Ok (kv, ktype, kvno) ->
     decrypt ktype kv 2 (tk_cipher tk) = Ok pt -> dt pt = dt' pt) ->
  (forall et apt, decrypt (et_keytype et) (et_key et) (auth_usage (tk_sname tk)) ac = Ok apt -> da apt = da' apt) ->
  verify_apreq dt da st kt t rc tk aet ac = verify_apreq dt' da' st kt t rc tk aet ac.
Proof.
  intros Ht Ha. apply verify_apreq_ext; [exact Ht|]. intros pt et apt _. apply Ha.
Qed.

(* the refinement: on the wire bytes of a well-formed AP-REQ (RFC 4120 DER, anything after it), if what the two
   encrypted parts decrypt to decodes to et and au, verdict and replay cache are those of the sealed-content model *)
Theorem verify_apreq_bytes_refines st kt t rc tk aet ac wire rest et au :
  wf_apreq tk aet ac = true -> encode rfc_APReq (inject_apreq tk aet ac) = Some wire -> zlen wire < 2 ^ 31 ->
  (forall kv ktype kvno pt,
     get_key kt (match st_override st with Some o => o | None => tk_sname tk end)
             (tk_realm tk) (tk_kvno tk) (tk_etype tk) = Ok (kv, ktype, kvno) ->
     decrypt ktype kv 2 (tk_cipher tk) = Ok pt -> dec_ticket_der pt = Some et) ->
  (forall apt, decrypt (et_keytype et) (et_key et) (auth_usage (tk_sname tk)) ac = Ok apt -> dec_auth_der apt = Some au) ->
  verify_apreq_bytes st kt t rc (wire ++ rest) =
  verify_apreq (fun _ => Some et) (fun _ => Some au) st kt t rc tk aet ac.
Proof.
  intros Hwf He Hl Ht Ha. unfold verify_apreq_bytes. rewrite (parse_apreq_encode tk aet ac wire rest Hwf He Hl).
  apply verify_apreq_ext; [exact Ht|]. intros pt et' apt E. injection E as <-. apply Ha.
Qed.

(* the same with the hypotheses on the decoders discharged by the round-trip theorems: the two plaintexts are the
   RFC 4120 DER encodings of et and au, each followed by anything (padding) *)
Corollary verify_apreq_bytes_refines_der st kt t rc tk aet ac wire rest et au ept pad apt0 apad :
  wf_apreq tk aet ac = true -> encode rfc_APReq (inject_apreq tk aet ac) = Some wire -> zlen wire < 2 ^ 31 ->
  wf_enc_ticket et = true -> encode rfc_EncTicketPart (inject_enc_ticket et) = Some ept -> zlen ept < 2 ^ 31 ->
  wf_authenticator au = true -> encode rfc_Authenticator (inject_authenticator au) = Some apt0 -> zlen apt0 < 2 ^ 31 ->
  (forall kv ktype kvno pt,
     get_key kt (match st_override st with Some o => o | None => tk_sname tk end)
             (tk_realm tk) (tk_kvno tk) (tk_etype tk) = Ok (kv, ktype, kvno) ->
     decrypt ktype kv 2 (tk_cipher tk) = Ok pt -> pt = ept ++ pad) ->
  (forall apt, decrypt (et_keytype et) (et_key et) (auth_usage (tk_sname tk)) ac = Ok apt -> apt = apt0 ++ apad) ->
  verify_apreq_bytes st kt t rc (wire ++ rest) =
  verify_apreq (fun _ => Some et) (fun _ => Some au) st kt t rc tk aet ac.
Proof.
  intros Hwf He Hl Hwt Het Hlt Hwa Hea Hla Ht Ha.
  apply verify_apreq_bytes_refines; auto.
  - intros kv ktype kvno pt Ek Ed. rewrite (Ht kv ktype kvno pt Ek Ed). apply dec_ticket_der_encode; assumption.
  - intros apt Ea. rewrite (Ha apt Ea). apply dec_auth_der_encode; assumption.
Qed.

(* nothing unsealed counts: a well-formed plaintext EncTicketPart carried after enc-part (it fills
   Ticket.DecryptedEncPart at Unmarshal) changes neither what is parsed nor the verdict nor the replay cache *)
Theorem unsealed_trailer_ignored st kt t rc tk aet ac tv rest :
  wf_apreq tk aet ac = true -> wfg go_EncTicketPart tv = true ->
  zlen (apreq_wire (ticket_wire tk (Some tv)) aet ac) < 2 ^ 31 ->
  zlen (apreq_wire (ticket_wire tk None) aet ac) < 2 ^ 31 ->
  parse_apreq (apreq_wire (ticket_wire tk (Some tv)) aet ac ++ rest) =
  parse_apreq (apreq_wire (ticket_wire tk None) aet ac ++ rest)
  /\ verify_apreq_bytes st kt t rc (apreq_wire (ticket_wire tk (Some tv)) aet ac ++ rest) =
     verify_apreq_bytes st kt t rc (apreq_wire (ticket_wire tk None) aet ac ++ rest).
Proof.
  intros Hwf Htv H1 H0.
  assert (E : parse_apreq (apreq_wire (ticket_wire tk (Some tv)) aet ac ++ rest) =
              parse_apreq (apreq_wire (ticket_wire tk None) aet ac ++ rest)).
  { rewrite (parse_apreq_wire tk aet ac (Some tv) rest Hwf Htv H1).
    rewrite (parse_apreq_wire tk aet ac None rest Hwf I H0). reflexivity. }
  split; [exact E|]. unfold verify_apreq_bytes. rewrite E. reflexivity.
Qed.

(* a wire that does not parse is rejected (never a panic), the replay cache is untouched *)
Theorem parse_failure_rejects st kt t rc wire :
  parse_apreq wire = None -> verify_apreq_bytes st kt t rc wire = (Reject reject_unparsable, rc).
Proof. intros H. unfold verify_apreq_bytes. rewrite H. reflexivity. Qed.

(* no wire input makes the acceptor panic: decoding is total and the decision core never crashes *)
Theorem verify_apreq_bytes_total st kt t rc wire : fst (verify_apreq_bytes st kt t rc wire) <> Crash.
Proof.
  unfold verify_apreq_bytes. destruct (parse_apreq wire) as [[[tk aet] ac]|]; [apply apreq_total | discriminate].
Qed.

(* acceptance from bytes, in terms of the RFC 4120 3.2.3 conjunction of C01 *)
Theorem verify_apreq_bytes_accept_iff st kt t rc wire id rc' :
  verify_apreq_bytes st kt t rc wire = (Accept id, rc') <->
  exists tk aet ac, parse_apreq wire = Some (tk, aet, ac) /\
                    rfc_valid dec_ticket_der dec_auth_der st kt t rc tk ac id rc'.
Proof.
  unfold verify_apreq_bytes. destruct (parse_apreq wire) as [[[tk aet] ac]|]; split.
  - intros H. exists tk, aet, ac. split; [reflexivity|]. apply (apreq_accept_iff dec_ticket_der dec_auth_der) in H. exact H.
  - intros (tk' & aet' & ac' & E & H). inversion E; subst. apply (apreq_accept_iff dec_ticket_der dec_auth_der). exact H.
  - discriminate.
  - intros (tk' & aet' & ac' & E & _). discriminate.
Qed.

Theorem verify_apreq_bytes_reject_keeps_cache st kt t rc wire o rc' :
  verify_apreq_bytes st kt t rc wire = (o, rc') -> (forall id, o <> Accept id) -> rc' = rc.
Proof.
  unfold verify_apreq_bytes. destruct (parse_apreq wire) as [[[tk aet] ac]|].
  - apply apreq_reject_keeps_cache.
  - intros H _. inversion H. reflexivity.
Qed.

(* examples: the hypotheses are satisfiable, on a request that is really sealed (rc4-hmac) *)
Definition ex_user : bytes := [117; 115; 101; 114].
Definition ex_realm : bytes := [69; 88; 65; 77; 80; 76; 69; 46; 67; 79; 77].
Definition ex_session : bytes := [1; 2; 3; 4; 5; 6; 7; 8; 9; 10; 11; 12; 13; 14; 15; 16].
Definition ex_svc_key : bytes := [16; 15; 14; 13; 12; 11; 10; 9; 8; 7; 6; 5; 4; 3; 2; 1].
Definition ex_conf : bytes := [9; 8; 7; 6; 5; 4; 3; 2].
Definition ex_sname : list bytes := [[72; 84; 84; 80]; [104; 111; 115; 116]].
Definition ex_et : enc_ticket :=
  mkEncTicket [64; 128; 0; 0] 23 ex_session ex_realm [ex_user] (Some 1700000000) 1700036000 [(2, [10; 1; 2; 3])].
Definition ex_au : authenticator := mkAuthenticator ex_realm [ex_user] 1700000100 123456.
Definition opt_get {A} (d : A) (o : option A) : A := match o with Some a => a | None => d end.
Definition res_get (r : res bytes) : bytes := match r with Ok b => b | _ => [] end.
Definition ex_pt : bytes := opt_get [] (encode rfc_EncTicketPart (inject_enc_ticket ex_et)).
Definition ex_apt : bytes := opt_get [] (encode rfc_Authenticator (inject_authenticator ex_au)).
Definition ex_tk : ticket := mkTicket ex_realm ex_sname 23 3 (res_get (encrypt_with 23 ex_svc_key 2 ex_conf ex_pt)).
Definition ex_ac : bytes := res_get (encrypt_with 23 ex_session 11 ex_conf ex_apt).
Definition ex_wire : bytes := opt_get [] (encode rfc_APReq (inject_apreq ex_tk 23 ex_ac)).
Definition ex_kt : list entry := [mkEntry (mkPrincipal 2 ex_realm ex_sname 1) 0 3 23 ex_svc_key 3].
Definition ex_st : settings := mkSettings 300000000 false (2, [10; 1; 2; 3]) None.
Definition ex_now : Z := 1700000101 * 1000000.
(* a complete foreign EncTicketPart: INVALID flag, other client, other realm, other key, expired in 1970 *)
Definition ex_evil : value :=
  inject_enc_ticket (mkEncTicket [65; 0; 0; 0] 18 [9; 9] [69; 86; 73; 76] [[114; 111; 111; 116]] None 5 []).

Example ex_wellformed :
  (wf_enc_ticket ex_et, wf_authenticator ex_au, wf_apreq ex_tk 23 ex_ac, wfg go_EncTicketPart ex_evil) = (true, true, true, true).
Proof. vm_compute. reflexivity. Qed.

Example ex_encodings :
  encode rfc_EncTicketPart (inject_enc_ticket ex_et) = Some ex_pt /\
  encode rfc_Authenticator (inject_authenticator ex_au) = Some ex_apt /\
  encode rfc_APReq (inject_apreq ex_tk 23 ex_ac) = Some ex_wire /\ zlen ex_wire = 403.
Proof. vm_compute. auto. Qed.

(* the decoders on the sealed contents, with des3-style zero padding / junk behind them *)
Example ex_decoders :
  dec_ticket_der (ex_pt ++ [0; 0; 0; 0]) = Some ex_et /\ dec_auth_der (ex_apt ++ [222; 173]) = Some ex_au.
Proof. vm_compute. auto. Qed.

Example ex_sealed :
  decrypt 23 ex_svc_key 2 (tk_cipher ex_tk) = Ok ex_pt /\ decrypt 23 ex_session 11 ex_ac = Ok ex_apt.
Proof. vm_compute. auto. Qed.

(* whatever the keytab key / the session key decrypt the two ciphers to is ex_pt / ex_apt *)
Lemma ex_opens :
  (forall kv ktype kvno pt,
     get_key ex_kt (eff_sname ex_st ex_tk)
             (tk_realm ex_tk) (tk_kvno ex_tk) (tk_etype ex_tk) = Ok (kv, ktype, kvno) ->
     decrypt ktype kv 2 (tk_cipher ex_tk) = Ok pt -> pt = ex_pt) /\
  (forall apt, decrypt (et_keytype ex_et) (et_key ex_et) (auth_usage (tk_sname ex_tk)) ex_ac = Ok apt -> apt = ex_apt).
Proof.
  destruct ex_sealed as [S1 S2]. split.
  - intros kv ktype kvno pt Hk Hd.
    assert (K : get_key ex_kt (eff_sname ex_st ex_tk)
                        (tk_realm ex_tk) (tk_kvno ex_tk) (tk_etype ex_tk) = Ok (ex_svc_key, 23, 3)) by (vm_compute; reflexivity).
    rewrite K in Hk. injection Hk as <- <- <-. rewrite S1 in Hd. injection Hd as <-. reflexivity.
  - intros apt Ha. change (decrypt 23 ex_session 11 ex_ac = Ok apt) in Ha. rewrite S2 in Ha. injection Ha as <-. reflexivity.
Qed.

Lemma ex_refines t rc rest :
  verify_apreq_bytes ex_st ex_kt t rc (ex_wire ++ rest) =
  verify_apreq (fun _ => Some ex_et) (fun _ => Some ex_au) ex_st ex_kt t rc ex_tk 23 ex_ac.
Proof.
  destruct ex_encodings as (E1 & E2 & E3 & L3). destruct ex_opens as [O1 O2].
  destruct (proj1 (pair_equal_spec _ _ _ _) ex_wellformed) as [W _].
  destruct (proj1 (pair_equal_spec _ _ _ _) W) as [W' W3]. destruct (proj1 (pair_equal_spec _ _ _ _) W') as [W1 W2].
  apply (verify_apreq_bytes_refines_der ex_st ex_kt t rc ex_tk 23 ex_ac ex_wire rest ex_et ex_au ex_pt [] ex_apt [] W3 E3);
    [rewrite L3; reflexivity | exact W1 | exact E1 | vm_compute; reflexivity | exact W2 | exact E2 | vm_compute; reflexivity | |].
  - intros kv ktype kvno pt Hk Hd. rewrite app_nil_r. exact (O1 kv ktype kvno pt Hk Hd).
  - intros apt Ha. rewrite app_nil_r. exact (O2 apt Ha).
Qed.

(* and the request is accepted from its bytes, with the sealed identity, as the sealed-content model says *)
Example ex_accepted :
  verify_apreq_bytes ex_st ex_kt ex_now [] (ex_wire ++ [0; 0]) =
  (Accept (mkIdentity ex_user ex_realm [ex_user] 1700036000), [mkAuth ex_user 1700000100123456 ex_sname])
  /\ verify_apreq_bytes ex_st ex_kt ex_now [] (ex_wire ++ [0; 0]) =
     verify_apreq (fun _ => Some ex_et) (fun _ => Some ex_au) ex_st ex_kt ex_now [] ex_tk 23 ex_ac.
Proof.
  split; [|exact (ex_refines ex_now [] [0; 0])]. rewrite (ex_refines ex_now [] [0; 0]).
  destruct ex_sealed as [S1 S2].
  apply (apreq_accept_iff (fun _ => Some ex_et) (fun _ => Some ex_au)).
  exists ex_svc_key, 23, 3, ex_pt, ex_et, ex_apt, ex_au. cbv zeta.
  split; [vm_compute; reflexivity|]. split; [exact S1|]. split; [reflexivity|].
  split; [vm_compute; discriminate|]. split; [reflexivity|]. split; [vm_compute; discriminate|].
  split; [right; left; reflexivity|]. split; [discriminate|]. split; [exact S2|]. split; [reflexivity|].
  split; [reflexivity|]. split; [reflexivity|]. split; [vm_compute; discriminate|]. split; [intros []|].
  split; reflexivity.
Qed.

(* the same ticket with the foreign EncTicketPart appended in clear: parsed the same, decided the same *)
Example ex_trailer :
  apreq_wire (ticket_wire ex_tk None) 23 ex_ac = ex_wire /\
  apreq_wire (ticket_wire ex_tk (Some ex_evil)) 23 ex_ac <> ex_wire /\
  parse_apreq (apreq_wire (ticket_wire ex_tk (Some ex_evil)) 23 ex_ac) = Some (ex_tk, 23, ex_ac) /\
  verify_apreq_bytes ex_st ex_kt ex_now [] (apreq_wire (ticket_wire ex_tk (Some ex_evil)) 23 ex_ac) =
  verify_apreq_bytes ex_st ex_kt ex_now [] ex_wire.
Proof. vm_compute. repeat split; auto. discriminate. Qed.

(* what does not parse is rejected with the code of parse_failure_rejects: truncation, wrong msg-type, wrong tag *)
Example ex_unparsable :
  verify_apreq_bytes ex_st ex_kt ex_now [] (firstn 402 ex_wire) = (Reject reject_unparsable, []) /\
  parse_apreq (110 :: skipn 1 ex_wire) = Some (ex_tk, 23, ex_ac) /\ parse_apreq (111 :: skipn 1 ex_wire) = None.
Proof. vm_compute. auto. Qed.
