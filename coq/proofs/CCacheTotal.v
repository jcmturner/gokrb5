(* CCache.cc_unmarshal is total on every byte string: it never panics, and the fuel it gives its loops
   (one unit per remaining byte) is never exhausted, i.e. the Go loops of the repaired reader terminate
   with a value or an error.  (C04 share of property C15.) *)
From Gokrb5.lib Require Import Bytes JV.
From Gokrb5.model Require Import CCache.
From Gokrb5.proofs Require Import BinReader.

Definition cc_fine {A} (r : res A) : Prop :=
  match r with Panic _ => False | Err c => c <> 99 | Ok _ => True end.

Lemma bind_fine {A B} (r : res A) (f : A -> res B) :
  cc_fine r -> (forall a, r = Ok a -> cc_fine (f a)) -> cc_fine (bind r f).
Proof. destruct r; cbn; auto. Qed.

(* [sound k rd]: rd is fine on every input and, when it succeeds, has consumed at least k bytes.  The
   predicate is closed under the `do`-sequencing the model is written in, so it is read off a reader's
   definition, one [sound_bind] per `do`. *)
Definition sound {A} (k : nat) (rd : bytes -> res (A * bytes)) : Prop :=
  forall r, cc_fine (rd r) /\ forall x r', rd r = Ok (x, r') -> (length r' + k <= length r)%nat.

Lemma sound_fine {A} k (rd : bytes -> res (A * bytes)) : sound k rd -> forall r, cc_fine (rd r).
Proof. intros H r. apply H. Qed.

Lemma sound_eats {A} k (rd : bytes -> res (A * bytes)) :
  sound k rd -> forall r x r', rd r = Ok (x, r') -> (length r' + k <= length r)%nat.
Proof. intros H r. apply H. Qed.

Lemma sound_le {A} k k' (rd : bytes -> res (A * bytes)) : (k <= k')%nat -> sound k' rd -> sound k rd.
Proof. intros Hk H r. split; [apply H|]. intros x r' E. apply H in E. lia. Qed.

Lemma sound_0 {A} k (rd : bytes -> res (A * bytes)) : sound k rd -> sound 0 rd.
Proof. apply sound_le. lia. Qed.

Lemma sound_ret {A} (x : A) : sound 0 (fun r => Ok (x, r)).
Proof. intros r. split; [exact I|]. intros ? ? E. injection E as _ <-. lia. Qed.

Lemma sound_bind {A B} k1 k2 (rd : bytes -> res (A * bytes)) (f : A -> bytes -> res (B * bytes)) :
  sound k1 rd -> (forall a, sound k2 (f a)) ->
  sound (k1 + k2) (fun r => do (a, r1) <- rd r; f a r1).
Proof.
  intros H1 H2 r. split.
  - apply bind_fine; [apply H1|]. intros [a r1] _. apply H2.
  - intros x r' E. apply bind_ok in E. destruct E as ([a r1] & Ea & Eb).
    apply H1 in Ea. apply (H2 a) in Eb. lia.
Qed.

Lemma sound_seq {A B} k (rd : bytes -> res (A * bytes)) (f : A -> bytes -> res (B * bytes)) :
  sound k rd -> (forall a, sound 0 (f a)) -> sound 0 (fun r => do (a, r1) <- rd r; f a r1).
Proof. intros H1 H2. apply (sound_0 (k + 0)). now apply sound_bind. Qed.

Lemma sound_if {A} k (c : bool) (a b : bytes -> res (A * bytes)) :
  sound k a -> sound k b -> sound k (fun r => if c then a r else b r).
Proof. destruct c; auto. Qed.

Lemma rd_bytes_sound s : sound 0 (rd_bytes s).
Proof.
  intros r. split.
  - unfold rd_bytes. destruct ((s <? 0) || (zlen r <? s)); cbn; lia.
  - intros x r' E. apply rd_bytes_rest in E. lia.
Qed.

Lemma rd_int_sound w le : sound (Z.to_nat w) (rd_int w le).
Proof.
  intros r. split.
  - unfold rd_int. apply bind_fine; [apply (sound_fine _ _ (rd_bytes_sound w))|]. intros [x r'] _. exact I.
  - intros x r' E. apply rd_int_rest in E. lia.
Qed.

Lemma rd_data_sound le : sound 4 (rd_data le).
Proof.
  unfold rd_data. apply (sound_bind 4 0); [apply (rd_int_sound 4)|intros l; apply rd_bytes_sound].
Qed.

Lemma rd_tagged_sound le : sound 6 (rd_tagged le).
Proof.
  unfold rd_tagged. apply (sound_bind 2 4); [apply (rd_int_sound 2)|intros t].
  apply (sound_bind 4 0); [apply rd_data_sound|intros d]. apply sound_ret.
Qed.

Lemma rd_many_fine {A} (rd : bytes -> res (A * bytes)) : sound 1 rd ->
  forall fuel n r, (length r < fuel)%nat -> cc_fine (rd_many rd fuel n r).
Proof.
  intros H. induction fuel as [|fuel IH]; intros n r Hlen; [lia|].
  cbn [rd_many]. destruct (n <=? 0); [exact I|].
  apply bind_fine; [apply (sound_fine _ _ H)|]. intros [x r1] E1. apply (sound_eats _ _ H) in E1.
  apply bind_fine; [apply IH; lia|]. intros [xs r2] _. exact I.
Qed.

Lemma rd_many_eats {A} (rd : bytes -> res (A * bytes)) k : sound k rd ->
  forall fuel n r xs r', rd_many rd fuel n r = Ok (xs, r') -> (length r' + k * length xs <= length r)%nat.
Proof.
  intros Hrd. induction fuel as [|fuel IH]; intros n r xs r' E; cbn [rd_many] in E.
  - destruct (n <=? 0); [|discriminate]. injection E as <- <-. cbn. lia.
  - destruct (n <=? 0); [injection E as <- <-; cbn; lia|].
    apply bind_ok in E. destruct E as ([x r1] & E1 & E).
    apply bind_ok in E. destruct E as ([ys r2] & E2 & E3). injection E3 as <- <-.
    apply (sound_eats _ _ Hrd) in E1. apply IH in E2. cbn [length]. lia.
Qed.

Lemma rd_many_sound {A} (rd : bytes -> res (A * bytes)) n :
  sound 1 rd -> sound 0 (fun r => rd_many rd (S (length r)) n r).
Proof.
  intros H r. split; [apply rd_many_fine; [exact H|lia]|].
  intros xs r' E. apply (rd_many_eats rd 1 H) in E. lia.
Qed.

Lemma rd_principal_sound v le : sound 8 (rd_principal v le).
Proof.
  unfold rd_principal.
  apply (sound_bind 0 8); [apply sound_if; [apply sound_ret|apply (sound_0 _ _ (rd_int_sound 4 le))]|intros nt].
  apply (sound_bind 4 4); [apply (rd_int_sound 4)|intros nc0]. cbv zeta.
  apply (sound_bind 4 0); [apply rd_data_sound|intros realm].
  apply (sound_bind 0 0); [apply rd_many_sound, (sound_le 1 4), rd_data_sound; lia|intros comps].
  apply sound_ret.
Qed.

Lemma rd_counted_sound le : sound 4 (rd_counted le).
Proof.
  unfold rd_counted. apply (sound_bind 4 0); [apply (rd_int_sound 4)|intros l r].
  destruct ((l <? 0) || (zlen r <? l)); [split; [cbn; lia|discriminate]|].
  apply rd_many_sound, (sound_le 1 6), rd_tagged_sound. lia.
Qed.

Lemma rd_credential_sound v le : sound 8 (rd_credential v le).
Proof.
  unfold rd_credential.
  apply (sound_bind 8 0); [apply rd_principal_sound|intros cl].
  apply (sound_seq _ _ _ (rd_principal_sound v le)); intros sv.
  apply (sound_seq _ _ _ (rd_int_sound 2 le)); intros kt0.
  apply (sound_bind 0 0); [apply sound_if; [apply (sound_0 _ _ (rd_int_sound 2 le))|apply sound_ret]|intros kt].
  apply (sound_seq _ _ _ (rd_data_sound le)); intros key.
  apply (sound_seq _ _ _ (rd_int_sound 4 le)); intros t1.
  apply (sound_seq _ _ _ (rd_int_sound 4 le)); intros t2.
  apply (sound_seq _ _ _ (rd_int_sound 4 le)); intros t3.
  apply (sound_seq _ _ _ (rd_int_sound 4 le)); intros t4.
  apply (sound_seq _ _ _ (rd_int_sound 1 le)); intros sk.
  apply (sound_seq _ _ _ (rd_int_sound 4 le)); intros fl.
  apply (sound_seq _ _ _ (rd_counted_sound le)); intros addrs.
  apply (sound_seq _ _ _ (rd_counted_sound le)); intros ad.
  apply (sound_seq _ _ _ (rd_data_sound le)); intros tk.
  apply (sound_seq _ _ _ (rd_data_sound le)); intros tk2.
  apply sound_ret.
Qed.

Lemma rd_creds_fine v le : forall fuel r, (length r < fuel)%nat -> cc_fine (rd_creds fuel v le r).
Proof.
  induction fuel as [|fuel IH]; intros r Hlen; [lia|].
  destruct r as [|x r0]; [exact I|]. cbn [rd_creds].
  apply bind_fine; [apply (sound_fine _ _ (rd_credential_sound v le))|]. intros [c r1] E1.
  apply (sound_eats _ _ (rd_credential_sound v le)) in E1.
  apply bind_fine; [apply IH; lia|]. intros cs _. exact I.
Qed.

Lemma rd_hfields_fine : forall fuel p hlen r, (length r < fuel)%nat -> cc_fine (rd_hfields fuel p hlen r).
Proof.
  induction fuel as [|fuel IH]; intros p hlen r Hlen; [lia|].
  cbn [rd_hfields]. destruct (p <=? hlen); [|exact I].
  apply bind_fine; [apply (sound_fine _ _ (rd_int_sound 2 false))|]. intros [tag0 r1] E1.
  apply bind_fine; [apply (sound_fine _ _ (rd_int_sound 2 false))|]. intros [len0 r2] E2. cbv zeta.
  apply bind_fine; [apply (sound_fine _ _ (rd_bytes_sound _))|]. intros [val r3] E3.
  destruct (hf_valid (wrap 16 tag0) (wrap 16 len0) val); [|cbn; lia].
  apply (sound_eats _ _ (rd_int_sound 2 false)) in E1. apply (sound_eats _ _ (rd_int_sound 2 false)) in E2.
  apply (sound_eats _ _ (rd_bytes_sound _)) in E3.
  apply bind_fine; [apply IH; lia|]. intros [fs r4] _. exact I.
Qed.

Lemma rd_header_fine r : cc_fine (rd_header r).
Proof.
  unfold rd_header. apply bind_fine; [apply (sound_fine _ _ (rd_int_sound 2 false))|]. intros [hl r0] _. cbv zeta.
  apply bind_fine; [apply rd_hfields_fine; lia|]. intros [fs r1] _. exact I.
Qed.

Theorem cc_unmarshal_total b : cc_fine (cc_unmarshal b).
Proof.
  unfold cc_unmarshal. destruct b as [|b0 [|v r]]; try (cbn; lia).
  destruct (negb (b0 =? 5)); [cbn; lia|].
  destruct ((v <? 1) || (4 <? v)); [cbn; lia|].
  apply bind_fine; [destruct (v =? 4); [apply rd_header_fine|exact I]|]. intros [hdr r1] _.
  apply bind_fine; [apply (sound_fine _ _ (rd_principal_sound v _))|]. intros [pr r2] _.
  apply bind_fine; [apply rd_creds_fine; lia|]. intros cs _. exact I.
Qed.

Corollary cc_unmarshal_j_never_panics b : cc_unmarshal_j (JB b) <> jpanic.
Proof.
  unfold cc_unmarshal_j, jres. pose proof (cc_unmarshal_total b) as H.
  destruct (cc_unmarshal b); cbn in *; [discriminate|discriminate|contradiction].
Qed.

(* Allocation (C04 share): with the count check of fix-1 (`l <= remaining`) make() is never called with
   more elements than bytes remain, and what a successful parse holds is bounded by the input. *)
Theorem rd_counted_bounded le r l r' :
  rd_counted le r = Ok (l, r') -> (length r' + 4 + 6 * length l <= length r)%nat.
Proof.
  intros E. unfold rd_counted in E. apply bind_ok in E. destruct E as ([n r1] & E1 & E).
  destruct ((n <? 0) || (zlen r1 <? n)); [discriminate|].
  apply rd_int_rest in E1. apply (rd_many_eats _ 6 (rd_tagged_sound le)) in E. lia.
Qed.

Lemma rd_creds_bounded v le : forall fuel r cs, rd_creds fuel v le r = Ok cs -> (length cs <= length r)%nat.
Proof.
  induction fuel as [|fuel IH]; intros r cs E; destruct r as [|x r0]; cbn [rd_creds] in E;
    try (injection E as <-; cbn; lia); try discriminate.
  apply bind_ok in E. destruct E as ([c r1] & E1 & E).
  apply bind_ok in E. destruct E as (cs' & E2 & E3). injection E3 as <-.
  apply (sound_eats _ _ (rd_credential_sound v le)) in E1. apply IH in E2. cbn [length] in *. lia.
Qed.

(* value, error on truncation, and the hostile count 0x7fffffff rejected without running the loop *)
Example total_example :
  cc_unmarshal [5; 3; 0;0;0;1; 0;0;0;0; 0;0;0;1; 65] = Ok (mkCC 3 0 [] (mkCP 1 [65] []) []) /\
  cc_unmarshal [5; 3; 0;0;0;1; 0;0;0;0; 0;0;0;1] = Err 1 /\
  cc_unmarshal [] = Err 12 /\
  rd_counted false [127;255;255;255; 0;2; 0;0;0;0] = Err 3.
Proof. repeat split; vm_compute; reflexivity. Qed.
