(* Gokrb5.proofs.DERProofs — the schema-directed codec of model/DERCodec.v: for EVERY schema t on which
   decoding is unambiguous (schema_ok), decode inverts encode (decode_encode); encode is total on well-formed
   values and injective. *)
From Coq Require Import ZifyBool.
From Gokrb5.lib Require Import Bytes JV.
From Gokrb5.model Require Import Schema DER DERCodec.
From Gokrb5.proofs Require Import DERBasic DERTime DEROid.

Section TyInd.
  Variable P : ty -> Prop.
  Hypothesis HInt : P TInt.
  Hypothesis HOctets : P TOctets.
  Hypothesis HGenStr : P TGenStr.
  Hypothesis HGenTime : P TGenTime.
  Hypothesis HBits : P TBits.
  Hypothesis HOid : P TOid.
  Hypothesis HEnum : P TEnum.
  Hypothesis HBool : P TBool.
  Hypothesis HSeq : forall fs : list field, Forall (fun f => P (snd f)) fs -> P (TSeq fs).
  Hypothesis HSeqOf : forall e, P e -> P (TSeqOf e).
  Hypothesis HApp : forall n t, P t -> P (TApp n t).
  Hypothesis HRaw : P TRaw.

  Fixpoint ty_ind' (t : ty) : P t :=
    match t with
    | TInt => HInt | TOctets => HOctets | TGenStr => HGenStr | TGenTime => HGenTime | TBits => HBits
    | TOid => HOid | TEnum => HEnum | TBool => HBool
    | TSeq fs =>
      HSeq fs ((fix go (l : list field) : Forall (fun f => P (snd f)) l :=
                  match l with
                  | [] => Forall_nil _
                  | f :: r => Forall_cons f (match f as f0 return P (snd f0) with (_, t') => ty_ind' t' end)
                                          (go r)
                  end) fs)
    | TSeqOf e => HSeqOf e (ty_ind' e)
    | TApp n t' => HApp n t' (ty_ind' t')
    | TRaw => HRaw
    end.
End TyInd.

(* b is shorter than K (2^32: four length octets) and than the element fuel *)
Definition fits_below (K : Z) (fuel : nat) (b : bytes) : Prop := zlen b < K /\ zlen b <= Z.of_nat fuel.
Definition fits : nat -> bytes -> Prop := fits_below (2 ^ 32).

Lemma fits_le K fuel b b' : zlen b' <= zlen b -> fits_below K fuel b -> fits_below K fuel b'.
Proof. unfold fits_below. lia. Qed.

Lemma fits_tlv K fuel id body : fits_below K fuel (tlv id body) -> fits_below K fuel body.
Proof. apply fits_le. pose proof (zlen_tlv id body). lia. Qed.

Lemma fits_app_l K fuel a b : fits_below K fuel (a ++ b) -> fits_below K fuel a.
Proof. apply fits_le. rewrite zlen_app. pose proof (zlen_nonneg b). lia. Qed.

Lemma fits_app_r K fuel a b : fits_below K fuel (a ++ b) -> fits_below K fuel b.
Proof. apply fits_le. rewrite zlen_app. pose proof (zlen_nonneg a). lia. Qed.

Lemma dec_prim_tlv id f body rest : id mod 32 <> 31 -> zlen body < 2 ^ 32 ->
  dec_prim id f (tlv id body ++ rest) = match f body with Some v => Some (v, rest) | None => None end.
Proof. intros Hi Hb. unfold dec_prim. rewrite parse_tlv_tlv by assumption. rewrite Z.eqb_refl. reflexivity. Qed.

Lemma dec_cons_tlv id d body rest : id mod 32 <> 31 -> zlen body < 2 ^ 32 ->
  dec_cons id d (tlv id body ++ rest) = match d body with Some (v, []) => Some (v, rest) | _ => None end.
Proof. intros Hi Hb. unfold dec_cons. rewrite parse_tlv_tlv by assumption. rewrite Z.eqb_refl. reflexivity. Qed.

Lemma tag_ok_range n : tag_ok n = true -> 0 <= n < 31.
Proof. unfold tag_ok. lia. Qed.

Lemma enc_head t v : wf_val t v = true ->
  exists x r, enc t v = x :: r /\ (forall i, ty_id t = Some i -> x = i).
Proof.
  destruct t; destruct v; cbn [wf_val]; try discriminate; intros H; cbn [enc ty_id];
    try (unfold tlv; eexists; eexists; split; [reflexivity | intros i E; congruence]).
  (* TRaw *)
  apply andb_true_iff in H. destruct H as [_ H]. unfold raw_ok in H.
  destruct b as [|x r]; [discriminate|]. exists x, r. split; [reflexivity | discriminate].
Qed.

Lemma wrap_head tag t v : wf_val t v = true ->
  exists x r, wrap_tag tag (enc t v) = x :: r /\ (forall i, field_id tag t = Some i -> x = i).
Proof.
  intros H. destruct tag as [n|]; cbn [wrap_tag field_id].
  - unfold tlv. eexists; eexists; split; [reflexivity | intros i E; congruence].
  - apply enc_head, H.
Qed.

Lemma enc_fields_cons (e : ty -> value -> bytes) tag opt t fs o vs :
  enc_fields e ((tag, opt, t) :: fs) (o :: vs) =
  (match o with Some v => wrap_tag tag (e t v) | None => [] end) ++ enc_fields e fs vs.
Proof. reflexivity. Qed.

Lemma wf_fields_cons (w : ty -> value -> bool) tag opt t fs o vs :
  wf_fields w ((tag, opt, t) :: fs) (o :: vs) =
  (match o with Some v => w t v | None => opt end) && wf_fields w fs vs.
Proof. reflexivity. Qed.

(* a field list followed by further fields: well-formedness and encoding split at the seam *)
Lemma fields_app (fs' : list field) (vs' : list (option value)) : forall (fs : list field) (vs : list (option value)),
  wf_fields wf_val fs vs = true ->
  wf_fields wf_val (fs ++ fs') (vs ++ vs') = wf_fields wf_val fs' vs' /\
  enc_fields enc (fs ++ fs') (vs ++ vs') = enc_fields enc fs vs ++ enc_fields enc fs' vs'.
Proof.
  induction fs as [| [[tag o] ft] fs IH]; intros vs H.
  - destruct vs; [|discriminate]. split; reflexivity.
  - destruct vs as [| v vs]; [discriminate|].
    rewrite wf_fields_cons in H. apply andb_true_iff in H. destruct H as [Hv Hr].
    destruct (IH vs Hr) as [W E]. cbn [app]. rewrite wf_fields_cons, enc_fields_cons, Hv, W, E, app_assoc. split; reflexivity.
Qed.

Lemma enc_fields_head fs : forall vs, wf_fields wf_val fs vs = true ->
  enc_fields enc fs vs = [] \/
  exists x r o, enc_fields enc fs vs = x :: r /\ In o (first_ids fs) /\ (forall i, o = Some i -> x = i).
Proof.
  induction fs as [|[[tag opt] t] fs IH]; intros vs H.
  - left. destruct vs; reflexivity.
  - destruct vs as [|o vs]; [discriminate|]. rewrite wf_fields_cons in H. apply andb_true_iff in H.
    destruct H as [H1 H2]. rewrite enc_fields_cons. cbn [first_ids]. destruct o as [v|].
    + right. destruct (wrap_head tag t v H1) as (x & r & E & Hx). rewrite E. cbn [app].
      exists x, (r ++ enc_fields enc fs vs), (field_id tag t). split; [reflexivity|]. split; [left; reflexivity | exact Hx].
    + subst opt. cbn [app]. destruct (IH vs H2) as [E|(x & r & o & E & Hin & Hx)]; [left; exact E|].
      right. exists x, r, o. split; [exact E|]. split; [right; exact Hin | exact Hx].
Qed.

(* rt t: the round trip at type t, for every value, fuel and rest *)
Definition rt (t : ty) : Prop :=
  forall v fuel rest, wf_val t v = true -> fits fuel (enc t v) ->
  decode t fuel (enc t v ++ rest) = Some (v, rest).

Lemma fields_ok_cons (ok : ty -> bool) tag opt t fs :
  fields_ok ok ((tag, opt, t) :: fs) =
  opt_tag_ok tag && ok t
  && (if opt then forallb (ids_distinct (field_id tag t)) (first_ids fs) else true)
  && fields_ok ok fs.
Proof. reflexivity. Qed.

Lemma fields_ok_inv (ok : ty -> bool) tag opt t fs : fields_ok ok ((tag, opt, t) :: fs) = true ->
  opt_tag_ok tag = true /\ ok t = true /\
  (opt = true -> forallb (ids_distinct (field_id tag t)) (first_ids fs) = true) /\ fields_ok ok fs = true.
Proof. rewrite fields_ok_cons. intros H. split_andb. repeat split; auto. intros ->. assumption. Qed.

Lemma dec_fields_cons dec tag opt t fs b :
  dec_fields dec ((tag, opt, t) :: fs) b =
  if negb opt || present tag t b then
    match dec_field dec tag t b with
    | Some (v, r) =>
      match dec_fields dec fs r with
      | Some (vs, r') => Some (Some v :: vs, r')
      | None => None
      end
    | None => None
    end
  else
    match dec_fields dec fs b with
    | Some (vs, r') => Some (None :: vs, r')
    | None => None
    end.
Proof. reflexivity. Qed.

Lemma dec_field_wrap fuel tag t v rest :
  opt_tag_ok tag = true -> rt t -> wf_val t v = true -> fits fuel (wrap_tag tag (enc t v)) ->
  dec_field (fun t' b' => decode t' fuel b') tag t (wrap_tag tag (enc t v) ++ rest) = Some (v, rest).
Proof.
  intros Htag Hrt Hwf Hfit. destruct tag as [n|]; cbn [wrap_tag dec_field opt_tag_ok] in *.
  - pose proof (fits_tlv _ _ _ _ Hfit) as Hfit'.
    rewrite dec_cons_tlv; [|apply ident_low; [lia | apply tag_ok_range, Htag] | apply Hfit'].
    rewrite <- (app_nil_r (enc t v)) at 1. rewrite Hrt by assumption. reflexivity.
  - apply Hrt; assumption.
Qed.

Lemma dec_fields_enc_fields fuel fs :
  Forall (fun f : field => schema_ok (snd f) = true -> rt (snd f)) fs ->
  fields_ok schema_ok fs = true ->
  forall vs, wf_fields wf_val fs vs = true -> fits fuel (enc_fields enc fs vs) ->
  dec_fields (fun t' b' => decode t' fuel b') fs (enc_fields enc fs vs) = Some (vs, []).
Proof.
  induction 1 as [|[[tag opt] t] fs Hrt _ IH]; intros Hok vs Hwf Hfit.
  - destruct vs; [reflexivity | discriminate].
  - destruct vs as [|o vs]; [discriminate|].
    rewrite wf_fields_cons in Hwf. apply andb_true_iff in Hwf. destruct Hwf as [Hw1 Hw2].
    apply fields_ok_inv in Hok. destruct Hok as (Htag & Hokt & Hdist & Hok).
    cbn [snd] in Hrt. specialize (Hrt Hokt). specialize (IH Hok vs Hw2).
    rewrite enc_fields_cons in *. rewrite dec_fields_cons. destruct o as [v|].
    + assert (Hp : negb opt || present tag t (wrap_tag tag (enc t v) ++ enc_fields enc fs vs) = true).
      { destruct opt; [|reflexivity]. cbn [negb orb].
        destruct (wrap_head tag t v Hw1) as (x & r & E & Hx). rewrite E. cbn [app present].
        destruct (field_id tag t) as [i|]; [|reflexivity]. rewrite (Hx i eq_refl). apply Z.eqb_refl. }
      rewrite Hp. rewrite dec_field_wrap; auto; [|eapply fits_app_l, Hfit].
      rewrite IH by (eapply fits_app_r, Hfit). reflexivity.
    + subst opt. cbn [app negb orb] in *.
      assert (Hp : present tag t (enc_fields enc fs vs) = false).
      { destruct (enc_fields_head fs vs Hw2) as [E|(x & r & o & E & Hin & Hx)]; rewrite E; [reflexivity|].
        cbn [present]. specialize (Hdist eq_refl). rewrite forallb_forall in Hdist. specialize (Hdist o Hin).
        unfold ids_distinct in Hdist. destruct (field_id tag t) as [a|]; [|discriminate]. destruct o as [y|]; [|discriminate].
        rewrite (Hx y eq_refl). lia. }
      rewrite Hp. rewrite IH by exact Hfit. reflexivity.
Qed.

Lemma wf_enc_nonempty t v : wf_val t v = true -> enc t v <> [].
Proof. intros H. destruct (enc_head t v H) as (x & r & E & _). rewrite E. discriminate. Qed.

Lemma dec_list_cons dec1 n b : b <> [] ->
  dec_list dec1 (S n) b =
  match dec1 b with
  | Some (v, r) => match dec_list dec1 n r with Some vs => Some (v :: vs) | None => None end
  | None => None
  end.
Proof. destruct b; [congruence | reflexivity]. Qed.

Lemma dec_list_flat_map fuel e : rt e -> forall vs (n : nat),
  Forall (fun v => wf_val e v = true) vs -> fits fuel (flat_map (enc e) vs) ->
  zlen (flat_map (enc e) vs) <= Z.of_nat n ->
  dec_list (decode e fuel) n (flat_map (enc e) vs) = Some vs.
Proof.
  intros Hrt vs. induction vs as [|v vs IH]; intros n Hwf Hfit Hn.
  - destruct n; reflexivity.
  - inversion Hwf as [|? ? Hv Hvs]; subst. cbn [flat_map] in *.
    pose proof (zlen_pos _ (wf_enc_nonempty e v Hv)) as Hl.
    rewrite zlen_app in Hn. pose proof (zlen_nonneg (flat_map (enc e) vs)). destruct n as [|n]; [lia|].
    rewrite dec_list_cons by (intros E; apply app_eq_nil in E; apply (wf_enc_nonempty e v Hv), E).
    rewrite Hrt by (auto; eapply fits_app_l, Hfit).
    rewrite IH; [reflexivity | exact Hvs | eapply fits_app_r, Hfit | lia].
Qed.

Lemma two_mod : forall id, 0 <= id < 31 -> id mod 32 <> 31.
Proof. intros. lia. Qed.

Theorem decode_encode_rt : forall t, schema_ok t = true -> rt t.
Proof.
  induction t using ty_ind'; intros Hok v fuel rest Hwf Hfit; cbn [schema_ok] in Hok.
  (* goal 11 is TApp, whose value is not destructed; the selection moves it behind TRaw *)
  1-10, 12: destruct v; cbn [wf_val] in Hwf; try discriminate.
  all: cbn [wf_val enc decode] in *.
  - (* TInt *) rewrite dec_prim_tlv; [|lia|apply (fits_tlv _ _ _ _ Hfit)]. rewrite dec_int_enc_int. reflexivity.
  - (* TOctets *) rewrite dec_prim_tlv; [|lia|apply (fits_tlv _ _ _ _ Hfit)]. reflexivity.
  - (* TGenStr *) rewrite dec_prim_tlv; [|lia|apply (fits_tlv _ _ _ _ Hfit)]. reflexivity.
  - (* TGenTime *) rewrite dec_prim_tlv; [|lia|apply (fits_tlv _ _ _ _ Hfit)]. rewrite dec_time_enc_time by exact Hwf. reflexivity.
  - (* TBits *) rewrite dec_prim_tlv; [|lia|apply (fits_tlv _ _ _ _ Hfit)].
    apply andb_true_iff in Hwf. destruct Hwf as [Hb _]. unfold enc_bits, dec_bits. rewrite Hb. reflexivity.
  - (* TOid *) rewrite dec_prim_tlv; [|lia|apply (fits_tlv _ _ _ _ Hfit)].
    destruct (oid_ok_enc arcs Hwf) as (x & E). rewrite E. rewrite (dec_oid_enc_oid _ _ E). reflexivity.
  - (* TEnum *) rewrite dec_prim_tlv; [|lia|apply (fits_tlv _ _ _ _ Hfit)]. rewrite dec_int_enc_int. reflexivity.
  - (* TBool *) rewrite dec_prim_tlv; [|lia|apply (fits_tlv _ _ _ _ Hfit)]. destruct b; reflexivity.
  - (* TSeq *) unfold id_seq in *. rewrite dec_cons_tlv; [|lia|apply (fits_tlv _ _ _ _ Hfit)].
    rewrite (dec_fields_enc_fields fuel fs); auto. apply (fits_tlv _ _ _ _ Hfit).
  - (* TSeqOf *) unfold id_seq in *. rewrite dec_cons_tlv; [|lia|apply (fits_tlv _ _ _ _ Hfit)].
    pose proof (fits_tlv _ _ _ _ Hfit) as Hf.
    rewrite (dec_list_flat_map fuel t (IHt Hok)); [reflexivity | apply Forall_forallb, Hwf | exact Hf | apply Hf].
  - (* TRaw *) apply andb_true_iff in Hwf. destruct Hwf as [_ Hr]. unfold raw_ok in Hr.
    destruct (parse_tlv b) as [[[i body] r]|] eqn:E; [|discriminate]. destruct r; [|discriminate].
    rewrite (parse_tlv_app _ _ _ _ rest E). apply parse_tlv_canon in E. destruct E as (E & _).
    rewrite app_nil_r in E. rewrite <- E. reflexivity.
  - (* TApp *) apply andb_true_iff in Hok. destruct Hok as [Hn Hok].
    pose proof (fits_tlv _ _ _ _ Hfit) as Hf.
    rewrite dec_cons_tlv; [|apply ident_low; [lia | apply tag_ok_range, Hn] | apply Hf].
    rewrite <- (app_nil_r (enc t v)) at 1. rewrite IHt by assumption. reflexivity.
Qed.

Lemma encode_some t v b : encode t v = Some b <-> wf_val t v = true /\ b = enc t v.
Proof.
  unfold encode. destruct (wf_val t v); split.
  - intros H. apply some_inj in H. auto.
  - intros [_ ->]. reflexivity.
  - discriminate.
  - intros [H _]. discriminate.
Qed.

Lemma decode_encode_some t v b rest (fuel : nat) :
  schema_ok t = true -> encode t v = Some b -> zlen b < 2 ^ 32 -> (length b <= fuel)%nat ->
  decode t fuel (b ++ rest) = Some (v, rest).
Proof.
  intros Hok He Hlen Hfuel. apply encode_some in He. destruct He as [Hwf ->].
  apply decode_encode_rt; auto. split; [exact Hlen | unfold zlen; lia].
Qed.

(* C13: for every unambiguous schema, decoding an encoding (followed by anything) returns the value and the untouched
   rest.  Side conditions: the encoding is shorter than 2^32 octets (every length fits the 4 length octets parse_len
   accepts) and the element fuel is at least its length. *)
Theorem decode_encode t v b rest (fuel : nat) :
  schema_ok t = true -> wf_val t v = true -> encode t v = Some b ->
  zlen b < 2 ^ 32 -> (length b <= fuel)%nat ->
  decode t fuel (b ++ rest) = Some (v, rest).
Proof. intros Hok _. apply decode_encode_some, Hok. Qed.

Theorem decode_top_encode t v b :
  schema_ok t = true -> encode t v = Some b -> zlen b < 2 ^ 32 -> decode_top t b = Some v.
Proof.
  intros Hok He Hlen. unfold decode_top.
  rewrite <- (app_nil_r b) at 2. rewrite (decode_encode_some t v b [] _ Hok He Hlen); [reflexivity | lia].
Qed.

Theorem encode_total t v : wf_val t v = true -> exists b, encode t v = Some b.
Proof. intros H. unfold encode. rewrite H. eauto. Qed.

Theorem encode_wf t v b : encode t v = Some b -> wf_val t v = true.
Proof. intros H. apply encode_some in H. tauto. Qed.

Theorem encode_injective t v1 v2 b :
  schema_ok t = true -> encode t v1 = Some b -> encode t v2 = Some b -> zlen b < 2 ^ 32 -> v1 = v2.
Proof.
  intros Hok H1 H2 Hlen.
  pose proof (decode_top_encode t v1 b Hok H1 Hlen) as D1.
  pose proof (decode_top_encode t v2 b Hok H2 Hlen) as D2.
  congruence.
Qed.

(* prefix-freeness: an encoding followed by anything is never re-read differently *)
Corollary encode_prefix_free t v1 v2 b1 b2 r1 r2 :
  schema_ok t = true -> encode t v1 = Some b1 -> encode t v2 = Some b2 ->
  zlen b1 < 2 ^ 32 -> zlen b2 < 2 ^ 32 -> b1 ++ r1 = b2 ++ r2 -> v1 = v2 /\ r1 = r2.
Proof.
  intros Hok H1 H2 L1 L2 E.
  pose proof (decode_encode_some t v1 b1 r1 (length b1 + length b2) Hok H1 L1 ltac:(lia)) as D1.
  pose proof (decode_encode_some t v2 b2 r2 (length b1 + length b2) Hok H2 L2 ltac:(lia)) as D2.
  rewrite E in D1. rewrite D1 in D2. inversion D2. auto.
Qed.

Definition enc_octets (t : ty) : Prop :=
  forall v, wf_val t v = true -> zlen (enc t v) < 2 ^ 32 -> wf_bytes (enc t v).

Lemma enc_fields_octets fs :
  Forall (fun f : field => schema_ok (snd f) = true -> enc_octets (snd f)) fs ->
  fields_ok schema_ok fs = true ->
  forall vs, wf_fields wf_val fs vs = true -> zlen (enc_fields enc fs vs) < 2 ^ 32 ->
  wf_bytes (enc_fields enc fs vs).
Proof.
  induction 1 as [|[[tag opt] t] fs Ho _ IH]; intros Hok vs Hwf Hl.
  - destruct vs; constructor.
  - destruct vs as [|o vs]; [discriminate|].
    rewrite wf_fields_cons in Hwf. apply andb_true_iff in Hwf. destruct Hwf as [Hw1 Hw2].
    apply fields_ok_inv in Hok. destruct Hok as (Htag & Hokt & _ & Hok).
    cbn [snd] in Ho. specialize (Ho Hokt). rewrite enc_fields_cons in *.
    apply wf_bytes_app. split; [|apply IH; auto; eapply zlen_lt_app_r, Hl].
    apply zlen_lt_app_l in Hl. destruct o as [v|]; [|constructor].
    destruct tag as [n|]; cbn [wrap_tag opt_tag_ok] in *; [|apply Ho; auto].
    apply tlv_wf; [apply ident_spec; [lia | apply tag_ok_range; assumption] | exact Hl |].
    apply Ho; auto. eapply zlen_lt_tlv, Hl.
Qed.

Theorem enc_wf_bytes : forall t, schema_ok t = true -> enc_octets t.
Proof.
  induction t using ty_ind'; intros Hok v Hwf Hl; cbn [schema_ok] in Hok.
  1-10, 12: destruct v; cbn [wf_val] in Hwf; try discriminate.
  all: cbn [wf_val enc] in *; unfold id_seq in *; split_andb.
  - apply tlv_wf; [lia | exact Hl | apply enc_int_wf].
  - apply tlv_wf; [lia | exact Hl | apply wf_bytesb_iff, Hwf].
  - apply tlv_wf; [lia | exact Hl | apply wf_bytesb_iff, Hwf].
  - apply tlv_wf; [lia | exact Hl | apply enc_time_wf, Hwf].
  - apply tlv_wf; [lia | exact Hl |]. unfold enc_bits, bits_ok in *.
    apply wf_bytes_cons. split; [lia | apply wf_bytesb_iff; assumption].
  - destruct (oid_ok_enc arcs Hwf) as (x & E). rewrite E in *.
    apply tlv_wf; [lia | exact Hl | eapply enc_oid_wf, E].
  - apply tlv_wf; [lia | exact Hl | apply enc_int_wf].
  - apply tlv_wf; [lia | exact Hl |]. apply wf_bytes_cons. split; [destruct b; lia | constructor].
  - apply tlv_wf; [lia | exact Hl |]. apply enc_fields_octets; auto. eapply zlen_lt_tlv, Hl.
  - apply tlv_wf; [lia | exact Hl |]. apply zlen_lt_tlv in Hl.
    induction vs as [|v vs IHvs]; [constructor|]. cbn [flat_map forallb] in *. split_andb.
    apply wf_bytes_app. split; [apply IHt; auto; eapply zlen_lt_app_l, Hl | apply IHvs; auto; eapply zlen_lt_app_r, Hl].
  - apply wf_bytesb_iff. assumption.
  - apply tlv_wf; [apply ident_spec; [lia | apply tag_ok_range; assumption] | exact Hl |].
    apply IHt; auto. eapply zlen_lt_tlv, Hl.
Qed.

Corollary encode_wf_bytes t v b :
  schema_ok t = true -> encode t v = Some b -> zlen b < 2 ^ 32 -> wf_bytes b.
Proof.
  intros Hok He Hl. apply encode_some in He. destruct He as [Hwf ->]. apply enc_wf_bytes; auto.
Qed.

(* PrincipalName ::= SEQUENCE { name-type [0] Int32, name-string [1] SEQUENCE OF KerberosString } *)
Definition ex_PrincipalName : ty := TSeq [(Some 0, false, TInt); (Some 1, false, TSeqOf TGenStr)].
Definition ex_krbtgt : value :=
  VSeq [Some (VInt 1); Some (VList [VBytes [107;114;98;116;103;116];                     (* "krbtgt" *)
                                    VBytes [69;88;65;77;80;76;69;46;67;79;77]])].        (* "EXAMPLE.COM" *)

Example ex_principal_bytes :
  encode ex_PrincipalName ex_krbtgt =
  Some [48;30; 160;3;2;1;1; 161;23;48;21; 27;6;107;114;98;116;103;116; 27;11;69;88;65;77;80;76;69;46;67;79;77].
Proof. vm_compute. reflexivity. Qed.

(* an APPLICATION-wrapped SEQUENCE with tagged OPTIONAL fields, an untagged OPTIONAL, a nested SEQUENCE OF
   SEQUENCE, a raw embedded TLV, flags and an OID *)
Definition ex_schema : ty :=
  TApp 1 (TSeq [(Some 0, false, TInt);
                (Some 1, true, TGenStr);
                (Some 2, true, ex_PrincipalName);
                (None, true, TBool);
                (None, true, TEnum);
                (Some 5, false, TGenTime);
                (Some 6, true, TRaw);
                (Some 7, true, TBits);
                (Some 8, true, TOid);
                (Some 9, false, TSeqOf (TSeq [(Some 0, false, TInt); (Some 1, true, TOctets)]))]).

Definition ex_value : value :=
  VSeq [Some (VInt (-129)); None; Some ex_krbtgt; None; Some (VInt 5); Some (VTime 951782400);
        Some (VBytes [4;1;9]); Some (VBits 0 [64;129;0;0]); None;
        Some (VList [VSeq [Some (VInt 18); Some (VBytes [1;2;3])]; VSeq [Some (VInt 23); None]])].

Definition ex_bytes : bytes :=
  [97;103;48;101; 160;4;2;2;255;127;
   162;32;48;30;160;3;2;1;1;161;23;48;21;27;6;107;114;98;116;103;116;27;11;69;88;65;77;80;76;69;46;67;79;77;
   10;1;5;
   165;17;24;15;50;48;48;48;48;50;50;57;48;48;48;48;48;48;90;
   166;3;4;1;9;
   167;7;3;5;0;64;129;0;0;
   169;23;48;21; 48;12;160;3;2;1;18;161;5;4;3;1;2;3; 48;5;160;3;2;1;23].

Example ex_schema_ok : schema_ok ex_schema = true.
Proof. vm_compute. reflexivity. Qed.
Example ex_value_wf : wf_val ex_schema ex_value = true.
Proof. vm_compute. reflexivity. Qed.
Example ex_encode : encode ex_schema ex_value = Some ex_bytes.
Proof. vm_compute. reflexivity. Qed.
Example ex_decode : decode_top ex_schema ex_bytes = Some ex_value.
Proof. vm_compute. reflexivity. Qed.
(* the same through the theorem: its hypotheses are satisfiable *)
Example ex_decode_by_theorem : decode_top ex_schema ex_bytes = Some ex_value.
Proof.
  apply decode_top_encode; [exact ex_schema_ok | exact ex_encode | vm_compute; reflexivity].
Qed.
Example ex_trailing_rejected : decode_top ex_schema (ex_bytes ++ [0]) = None.
Proof. vm_compute. reflexivity. Qed.
Example ex_nonminimal_length_rejected : decode_top TInt [2; 129; 1; 5] = None.
Proof. vm_compute. reflexivity. Qed.
Example ex_nonminimal_int_rejected : decode_top TInt [2; 2; 0; 5] = None.
Proof. vm_compute. reflexivity. Qed.

(* schema_ok is needed: an untagged OPTIONAL INTEGER before a mandatory INTEGER cannot be told apart *)
Definition ex_ambiguous : ty := TSeq [(None, true, TInt); (None, false, TInt)].
Example ex_ambiguous_not_ok : schema_ok ex_ambiguous = false.
Proof. vm_compute. reflexivity. Qed.
Example ex_ambiguous_fails :
  wf_val ex_ambiguous (VSeq [None; Some (VInt 5)]) = true /\
  encode ex_ambiguous (VSeq [None; Some (VInt 5)]) = Some [48; 3; 2; 1; 5] /\
  decode_top ex_ambiguous [48; 3; 2; 1; 5] = None.
Proof. vm_compute. auto. Qed.
