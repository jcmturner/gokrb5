(* Look-ups on a parsed credential cache: GetEntry returns the first credential whose server name equals
   the request, Contains says whether there is one, GetEntries drops exactly the configuration entries
   (server realm starting with "X-CACHECONF") and keeps the order; a client built by NewFromCCache holds
   the first krbtgt/REALM credential as its session and exactly the tickets of the other
   non-configuration credentials, the last one per service name. *)
From Gokrb5.lib Require Import Bytes JV.
From Gokrb5.model Require Import CCache.

Definition sname (c : cred) : list bytes := cp_comps (c_server c).

Lemma comps_eqb_eq a b : comps_eqb a b = true <-> a = b.
Proof.
  revert b; induction a as [|x a IH]; intros [|y b]; cbn; try (split; congruence).
  rewrite andb_true_iff, beq_bytes_eq, IH.
  split; [intros [-> ->]; reflexivity | intros H; inversion H; auto].
Qed.

Lemma serves_iff name c : serves name c = true <-> sname c = name.
Proof. unfold serves, sname. apply comps_eqb_eq. Qed.

Lemma serves_false name c : serves name c = false <-> sname c <> name.
Proof. rewrite <- serves_iff. symmetry. apply not_true_iff_false. Qed.

Theorem get_entry_spec cs name :
  match get_entry cs name with
  | Some c => exists pre post, cs = pre ++ c :: post /\ sname c = name /\
                               Forall (fun c' => sname c' <> name) pre
  | None => forall c, In c cs -> sname c <> name
  end.
Proof.
  induction cs as [|c cs IH]; cbn [get_entry].
  - intros c [].
  - destruct (serves name c) eqn:E.
    + exists [], cs. split; [reflexivity|]. split; [apply serves_iff, E|constructor].
    + apply serves_false in E. destruct (get_entry cs name) as [c0|].
      * destruct IH as (pre & post & -> & Hn & Hpre).
        exists (c :: pre), post. split; [reflexivity|]. split; [exact Hn|]. constructor; assumption.
      * intros c' [<-|Hin]; [exact E|apply IH, Hin].
Qed.

Corollary get_entry_found cs name c :
  get_entry cs name = Some c -> In c cs /\ sname c = name.
Proof.
  intros E. pose proof (get_entry_spec cs name) as H. rewrite E in H.
  destruct H as (pre & post & -> & Hn & _). split; [|exact Hn]. apply in_or_app. right. left. reflexivity.
Qed.

Corollary get_entry_complete cs name :
  (exists c, In c cs /\ sname c = name) -> exists c, get_entry cs name = Some c.
Proof.
  intros (c & Hin & Hn). pose proof (get_entry_spec cs name) as H.
  destruct (get_entry cs name) as [c0|]; [eauto|]. exfalso. exact (H c Hin Hn).
Qed.

Theorem contains_spec cs name :
  contains cs name = true <-> exists c, In c cs /\ sname c = name.
Proof.
  unfold contains. rewrite existsb_exists. split; intros (c & Hin & H); exists c; split; auto;
    apply serves_iff; exact H.
Qed.

Corollary contains_get_entry cs name :
  contains cs name = match get_entry cs name with Some _ => true | None => false end.
Proof.
  induction cs as [|c cs IH]; cbn; [reflexivity|].
  destruct (serves name c); [reflexivity|exact IH].
Qed.

Lemma has_prefix_spec pre s : has_prefix pre s = true <-> exists t, s = pre ++ t.
Proof.
  revert s; induction pre as [|x pre IH]; intros s; cbn.
  - split; [eauto|reflexivity].
  - destruct s as [|y s].
    + split; [discriminate|]. intros (t & E). discriminate.
    + rewrite andb_true_iff, Z.eqb_eq, IH. split.
      * intros (-> & t & ->). eauto.
      * intros (t & E). injection E as -> ->. eauto.
Qed.

Definition conf_realm (c : cred) : Prop := exists t, cp_realm (c_server c) = cacheconf ++ t.

Lemma is_conf_iff c : is_conf c = true <-> conf_realm c.
Proof. apply has_prefix_spec. Qed.

Theorem get_entries_filters_conf cs :
  (forall c, In c (get_entries cs) <-> In c cs /\ ~ conf_realm c) /\
  (forall a b, get_entries (a ++ b) = get_entries a ++ get_entries b) /\
  (forall c, get_entries [c] = if is_conf c then [] else [c]).
Proof.
  split; [|split].
  - intros c. unfold get_entries. now rewrite filter_In, negb_true_iff, <- is_conf_iff, not_true_iff_false.
  - intros a b. unfold get_entries. apply filter_app.
  - intros c. unfold get_entries. cbn [filter]. destruct (is_conf c); reflexivity.
Qed.

(* the entries krb5 itself writes ("X-CACHECONF:") are configuration entries *)
Example conf_realm_mit c : cp_realm (c_server c) = cacheconf ++ [58] -> is_conf c = true.
Proof. intros E. apply is_conf_iff. exists [58]. exact E. Qed.

Lemma first_serving_get_entry name : forall cs dec c d,
  first_serving name (combine cs dec) = Some (c, d) ->
  exists pre post, cs = pre ++ c :: post /\ sname c = name /\ Forall (fun c' => sname c' <> name) pre /\
                   nth_error dec (length pre) = Some d.
Proof.
  induction cs as [|c0 cs IH]; intros [|d0 dec] c d E; cbn [combine first_serving] in E; try discriminate.
  destruct (serves name c0) eqn:S.
  - injection E as <- <-. exists [], cs. repeat split; [apply serves_iff, S|constructor].
  - apply IH in E. destruct E as (pre & post & -> & Hn & Hpre & Hd).
    exists (c0 :: pre), post. repeat split; try assumption.
    constructor; [apply serves_false, S|assumption].
Qed.

Lemma add_entries_spec : forall l es,
  add_entries l = Ok es ->
  map (fun '(s, c) => (c, Some s)) es = filter (fun '(c, _) => negb (is_conf c)) l.
Proof.
  induction l as [|[c d] l IH]; intros es E; cbn [add_entries] in E.
  - injection E as <-. reflexivity.
  - cbn [filter]. destruct (is_conf c); cbn [negb]; [apply IH, E|].
    destruct d as [spn|]; [|discriminate].
    destruct (add_entries l) as [rest| |]; cbn [bind] in E; try discriminate.
    injection E as <-. cbn [map]. f_equal. apply IH. reflexivity.
Qed.

(* map semantics: the last entry for an SPN, nothing when there is none *)
Lemma cache_lookup_acc es spn : forall cur,
  cache_lookup es spn cur =
    match cache_lookup es spn None with Some c => Some c | None => cur end.
Proof.
  induction es as [|[s c] es IH]; intros cur; cbn [cache_lookup]; [reflexivity|].
  destruct (beq_bytes s spn); [|apply IH].
  rewrite (IH (Some c)). destruct (cache_lookup es spn None); reflexivity.
Qed.

Theorem cache_lookup_spec es spn :
  match cache_lookup es spn None with
  | Some c => exists pre post, es = pre ++ (spn, c) :: post /\ Forall (fun e => fst e <> spn) post
  | None => Forall (fun e => fst e <> spn) es
  end.
Proof.
  induction es as [|[s c] es IH]; cbn [cache_lookup]; [constructor|].
  rewrite cache_lookup_acc.
  destruct (cache_lookup es spn None) as [c1|].
  - destruct IH as (pre & post & -> & Hpost). exists ((s, c) :: pre), post. split; [reflexivity|assumption].
  - destruct (beq_bytes s spn) eqn:B.
    + apply beq_bytes_eq in B. subst s. exists [], es. split; [reflexivity|exact IH].
    + constructor; [|exact IH]. cbn. intros E. subst s. rewrite beq_bytes_refl in B. discriminate.
Qed.

(* The client holds exactly the tickets and keys of the cache:
   - its session is the first credential of the file whose server name is krbtgt/<default realm>, and
     that credential's ticket decoded;
   - its ticket cache received, in file order, one addEntry per non-configuration credential, keyed by
     the service name of the decoded ticket, and every such credential decoded (else an error);
   cache_lookup_spec then says which one a later look-up by SPN finds (the last). *)
Theorem client_from_ccache_holds_exactly cc dec st :
  client_from_ccache cc dec = Ok st ->
  (exists pre post spn,
      cc_creds cc = pre ++ cs_session st :: post /\
      sname (cs_session st) = [krbtgt; cp_realm (cc_princ cc)] /\
      Forall (fun c' => sname c' <> [krbtgt; cp_realm (cc_princ cc)]) pre /\
      nth_error dec (length pre) = Some (Some spn)) /\
  map (fun '(s, c) => (c, Some s)) (cs_cache st)
    = filter (fun '(c, _) => negb (is_conf c)) (combine (cc_creds cc) dec).
Proof.
  unfold client_from_ccache. intros E.
  destruct (first_serving [krbtgt; cp_realm (cc_princ cc)] (combine (cc_creds cc) dec)) as [[tgt [spn|]]|] eqn:F;
    try discriminate.
  destruct (add_entries (combine (cc_creds cc) dec)) as [es| |] eqn:A; cbn [bind] in E; try discriminate.
  injection E as <-. cbn [cs_session cs_cache].
  split.
  - apply first_serving_get_entry in F. destruct F as (pre & post & E1 & E2 & E3 & E4).
    exists pre, post, spn. auto.
  - apply add_entries_spec, A.
Qed.

Lemma first_serving_none name : forall cs dec,
  (forall c, In c cs -> sname c <> name) -> first_serving name (combine cs dec) = None.
Proof.
  induction cs as [|c0 cs IH]; intros [|d dec] Hno; try reflexivity.
  cbn [combine first_serving].
  replace (serves name c0) with false by (symmetry; apply serves_false, Hno; left; reflexivity).
  apply IH. intros c' Hin. apply Hno. right. exact Hin.
Qed.

Lemma add_entries_err c : is_conf c = false -> forall l, In (c, None) l -> exists e, add_entries l = Err e.
Proof.
  intros Hc. induction l as [|[c0 d0] l IH]; intros Hin; [destruct Hin|].
  cbn [add_entries]. destruct Hin as [E|Hin].
  - injection E as -> ->. rewrite Hc. eauto.
  - destruct (IH Hin) as (e & ->). destruct (is_conf c0); [eauto|]. destruct d0; cbn [bind]; eauto.
Qed.

(* and it refuses a cache without a usable TGT or with an undecodable service ticket *)
Theorem client_from_ccache_rejects cc dec :
  length dec = length (cc_creds cc) ->
  ((forall c, In c (cc_creds cc) -> sname c <> [krbtgt; cp_realm (cc_princ cc)]) \/
   (exists c, In (c, None) (combine (cc_creds cc) dec) /\ is_conf c = false)) ->
  exists e, client_from_ccache cc dec = Err e.
Proof.
  intros _ [Hno|(c & Hin & Hc)]; unfold client_from_ccache.
  - rewrite first_serving_none by exact Hno. eauto.
  - destruct (add_entries_err c Hc _ Hin) as (e & A).
    destruct (first_serving _ _) as [[tgt [spn|]]|]; eauto. rewrite A. cbn [bind]. eauto.
Qed.

(* a TGT, two tickets for the same service and a configuration entry *)
Definition lk_cred (realm : bytes) (name : list bytes) (k : Z) : cred :=
  mkCred (mkCP 1 [82] [[117]]) (mkCP 2 realm name) 18 [k] 1 2 3 4 false 0 [] [] [k; k] [].

Example lookup_example :
  let tgt := lk_cred [82] [krbtgt; [82]] 1 in
  let s1 := lk_cred [82] [[72]; [104]] 2 in
  let cf := lk_cred (cacheconf ++ [58]) [[107]] 3 in
  let s2 := lk_cred [82] [[72]; [104]] 4 in
  let cs := [s1; tgt; cf; s2] in
  let cc := mkCC 4 0 [] (mkCP 1 [82] [[117]]) cs in
  get_entry cs [[72]; [104]] = Some s1 /\ get_entry cs [[72]] = None /\
  contains cs [krbtgt; [82]] = true /\ contains cs [[104]; [72]] = false /\
  get_entries cs = [s1; tgt; s2] /\
  (exists st, client_from_ccache cc [Some [72;47;104]; Some [107]; None; Some [72;47;104]] = Ok st /\
              cs_session st = tgt /\
              cache_lookup (cs_cache st) [72;47;104] None = Some s2 /\
              cache_lookup (cs_cache st) [107] None = Some tgt /\
              cache_lookup (cs_cache st) [120] None = None) /\
  client_from_ccache cc [Some [72;47;104]; None; None; Some [72;47;104]] = Err 31 /\
  client_from_ccache cc [None; Some [107]; None; Some [72;47;104]] = Err 32.
Proof.
  cbv zeta. repeat split; try (vm_compute; reflexivity).
  eexists. repeat split; vm_compute; reflexivity.
Qed.
