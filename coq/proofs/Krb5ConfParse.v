(* Gokrb5.proofs.Krb5ConfParse — the line parsers of krb5.conf (repaired code).
   parse_total            no input makes NewFromScanner index or slice out of range (every Go index / slice
                          expression of the model returns Ok), nested and one-line blocks included;
   *_rejected             the structurally invalid shapes the parser detects give an error;
   *_relation_partial     per-line halves of parse (render cfg layout) = cfg: a relation line rendered
                          with any white space, key case and trailing comment has exactly the intended
                          effect (the whole-file round trip is not proved). *)
From Coq Require Import String.
From Gokrb5.lib Require Import Bytes GoString.
From Gokrb5.model Require Import Krb5Conf.
From Gokrb5.proofs Require Import Krb5ConfValues.
Open Scope Z_scope.

Definition no_panic {A} (r : res A) : Prop := is_panic r = false.

Lemma no_panic_bind {A B} (r : res A) (f : A -> res B) :
  no_panic r -> (forall a, r = Ok a -> no_panic (f a)) -> no_panic (bind r f).
Proof. apply bind_no_panic. Qed.

Lemma fold_res_inv {A S} (f : S -> A -> res S) (P : S -> Prop) :
  (forall s x, P s -> match f s x with Ok s' => P s' | Err _ => True | Panic _ => False end) ->
  forall l s, P s -> match fold_res f s l with Ok s' => P s' | Err _ => True | Panic _ => False end.
Proof.
  intros H l. induction l as [|x l IH]; intros s Hs; cbn; [exact Hs|].
  specialize (H s x Hs). destruct (f s x) as [s'|e|p]; cbn [bind]; [apply IH; exact H|exact I|contradiction].
Qed.

Lemma fold_res_total {A S} (f : S -> A -> res S) : (forall s x, no_panic (f s x)) ->
  forall l s, no_panic (fold_res f s l).
Proof.
  intros H l. induction l as [|x l IH]; intros s; [reflexivity|].
  cbn [fold_res]. apply no_panic_bind; [apply H|]. intros s' _. apply IH.
Qed.

Lemma map_res_no_panic {A B} (f : A -> res B) l : (forall x, no_panic (f x)) -> no_panic (map_res f l).
Proof.
  intros H. induction l as [|x l IH]; [reflexivity|]. cbn [map_res].
  apply no_panic_bind; [apply H|]. intros y _.
  apply no_panic_bind; [exact IH|]. intros ys _. reflexivity.
Qed.

Lemma map_res_length {A B} (f : A -> res B) l r : map_res f l = Ok r -> length r = length l.
Proof.
  revert r; induction l as [|x l IH]; intros r; cbn [map_res]; [intros H; inversion H; reflexivity|].
  intros H. apply bind_ok in H. destruct H as (y & _ & H). apply bind_ok in H. destruct H as (ys & E & H).
  injection H as <-. cbn. now rewrite (IH _ E).
Qed.

Lemma option_res_no_panic {A} (o : option A) :
  no_panic (match o with Some j => Ok j | None => Err invalid end).
Proof. destruct o; reflexivity. Qed.

Lemma split_byte_second c s : contains_byte c s = true -> exists a b t, split_byte c s = a :: b :: t.
Proof.
  intros H. apply contains_byte_in in H.
  destruct (cut c s) as [[a rest]|] eqn:E; [|apply cut_none in E; contradiction].
  destruct (cut_spec _ _ _ _ E) as [-> Hn]. rewrite split_byte_app by exact Hn.
  destruct (split_byte_nonempty c rest) as (h & t & ->). eauto.
Qed.

Lemma gindex_split0 site c s : exists h, gindex site (split_byte c s) 0 = Ok h.
Proof. destruct (split_byte_nonempty c s) as (h & t & ->). exists h. reflexivity. Qed.

Lemma parse_duration_total s : no_panic (parse_duration s).
Proof.
  unfold parse_duration. set (t := remove_byte 32 (trim_space s)).
  destruct (contains_byte 100 t) eqn:Ed.
  - apply contains_byte_in in Ed.
    destruct (cut 100 t) as [[a b]|] eqn:E; [|apply cut_none in E; contradiction].
    rewrite splitn_SS, E. cbn [splitn]. rewrite gindex_0. cbn [bind].
    destruct (parse_uint 32 a); [|reflexivity]. rewrite gindex_1. cbn [bind].
    destruct b; [reflexivity|]. destruct (go_parse_duration (_ :: b)); reflexivity.
  - destruct (go_parse_duration t); try reflexivity.
    destruct (match parse_uint 32 t with Some v => if 0 <? v then Some v else None | None => None end); [reflexivity|].
    destruct (contains_byte 58 t); [|reflexivity].
    destruct ((zlen (split_byte 58 t) <? 2) || (3 <? zlen (split_byte 58 t))) eqn:El; [reflexivity|].
    apply orb_false_iff in El. destruct El as [L2 L3]. apply Z.ltb_ge in L2, L3.
    (* the three index expressions are inside the list because it is as long as the list of parts *)
    apply no_panic_bind; [apply map_res_no_panic; intros x; apply option_res_no_panic|]. intros i Em.
    apply map_res_length in Em. unfold zlen in L2, L3.
    destruct i as [|i0 [|i1 [|i2 [|i3 i]]]]; cbn [length] in Em; try lia; reflexivity.
Qed.

Lemma parse_boolean_total s : no_panic (parse_boolean s).
Proof.
  unfold parse_boolean. destruct (parse_bool_go _); [reflexivity|].
  destruct (_ || _); [reflexivity|]. destruct (_ || _); reflexivity.
Qed.

Lemma parse_val_total k p1 : no_panic (parse_val k p1).
Proof.
  destruct k; cbn [parse_val]; try reflexivity.
  - apply no_panic_bind; [apply parse_boolean_total|reflexivity].
  - apply no_panic_bind; [apply parse_duration_total|reflexivity].
  - destruct ((if unsigned then parse_uint 32 else parse_int 32) (trim_space p1)); [|reflexivity].
    destruct (_ && _); reflexivity.
  - destruct (hex_decode _); reflexivity.
  - apply no_panic_bind; [|reflexivity]. apply map_res_no_panic. intros x. apply option_res_no_panic.
Qed.

Lemma ld_line_total l line : no_panic (ld_line l line).
Proof.
  unfold ld_line. set (t := trim_space (strip_comment line)).
  destruct (is_nil t); [reflexivity|].
  destruct (contains_byte 61 t) eqn:E; [|reflexivity]. cbn [negb].
  destruct (split_byte_second 61 t E) as (a & b & r & ->). rewrite gindex_0. cbn [bind].
  destruct (lookup _ ld_keys) as [k|]; [|reflexivity]. rewrite gindex_1. cbn [bind].
  apply no_panic_bind; [apply parse_val_total|]. intros [v|] _; reflexivity.
Qed.

Lemma ld_parse_total l lines : no_panic (ld_parse_lines l lines).
Proof. apply fold_res_total, ld_line_total. Qed.

Lemma dr_line_total d line : no_panic (dr_line d line).
Proof.
  unfold dr_line. set (t := strip_comment line).
  destruct (is_nil (trim_space t)); [reflexivity|].
  destruct (contains_byte 61 t) eqn:E; [|reflexivity]. cbn [negb].
  destruct (split_byte_second 61 t E) as (a & b & r & ->). reflexivity.
Qed.

Lemma dr_parse_total d lines : no_panic (dr_parse_lines d lines).
Proof. apply fold_res_total, dr_line_total. Qed.

(* inside a nested block (depth > 0) the parser is ignoring *)
Definition rinv (st : rstate) : Prop := 0 <= rs_c st /\ (0 < rs_c st -> rs_ignore st = true).

Lemma rinv_flow st ignore c v4 : 0 <= c -> (0 < c -> ignore = true) -> rinv (rs_flow st ignore c v4).
Proof. intros; split; assumption. Qed.

Lemma realm_relation_flow st key v :
  rs_ignore (realm_relation st key v) = rs_ignore st /\ rs_c (realm_relation st key v) = rs_c st.
Proof.
  unfold realm_relation.
  repeat match goal with
         | |- context [if ?b then _ else _] => destruct b
         | |- context [let '(_, _) := ?p in _] => destruct p
         end; cbn; auto.
Qed.

(* The only index expressions are p[0], p[1] of the line split at '='.  They are reached only outside nested
   blocks, where the invariant makes the line one without braces, and such a line was rejected unless it
   contains '='. *)
Lemma realm_line_inv st l0 : rinv st ->
  match realm_line st l0 with Ok st' => rinv st' | Err _ => True | Panic _ => False end.
Proof.
  intros [Hc Hi]. unfold realm_line.
  destruct (rs_ignore st && (0 <? rs_c st) && negb (contains_byte 123 l0) && negb (contains_byte 125 l0));
    [split; assumption|].
  set (line := trim_space (strip_comment l0)).
  destruct (is_nil line); [split; assumption|].
  set (v4 := rs_v4 st || contains S_v4_tag line).
  set (ign := rs_ignore st || contains S_v4_tag line).
  destruct (negb (contains_byte 61 line) && negb (contains_byte 125 line)) eqn:Erej; [exact I|].
  destruct (contains_byte 125 line) eqn:Ecl, (contains_byte 123 line) eqn:Eop; cbn [negb andb orb].
  - (* } and { on one line: the depth is unchanged *)
    replace (rs_c st + 1 - 1) with (rs_c st) by lia. rewrite orb_true_r.
    destruct (Z.ltb_spec (rs_c st) 0); [lia|].
    destruct (Z.ltb_spec (rs_c st) 1); apply rinv_flow; intros; lia || reflexivity.
  - (* } : one level up; it closes something only if the depth was positive, and then we were ignoring *)
    destruct (Z.ltb_spec (rs_c st - 1) 0); [exact I|].
    assert (ign = true) as -> by (unfold ign; rewrite Hi by lia; reflexivity). cbn [orb].
    destruct (Z.ltb_spec (rs_c st - 1) 1); apply rinv_flow; intros; lia || reflexivity.
  - (* { : one level down, ignoring from here *)
    rewrite orb_true_r. apply rinv_flow; intros; lia || reflexivity.
  - (* no brace: a relation, or a line inside a nested block *)
    rewrite andb_true_r in Erej. apply negb_false_iff in Erej. rewrite orb_false_r.
    destruct (ign && (0 <? rs_c st)) eqn:Esk.
    + apply andb_true_iff in Esk. destruct Esk as [Hg _]. apply rinv_flow; intros; assumption.
    + destruct (split_byte_second 61 line Erej) as (a & b & r & ->). rewrite gindex_0, gindex_1. cbn [bind].
      destruct (realm_relation_flow (rs_flow st ign (rs_c st) v4) (trim_space (to_lower a)) (trim_space b))
        as [E1 E2].
      unfold rinv. rewrite E1, E2. cbn [rs_flow rs_c rs_ignore].
      split; [lia|]. intros Hpos.
      apply andb_false_iff in Esk. destruct Esk as [Hg|Hz]; [|apply Z.ltb_ge in Hz; lia].
      unfold ign in Hg. rewrite (Hi Hpos) in Hg. discriminate.
Qed.

Lemma kpasswd_default_total r : no_panic (kpasswd_default r).
Proof.
  unfold kpasswd_default. destruct (zlen (r_kpw r) <? 1); [|reflexivity].
  apply no_panic_bind; [|reflexivity]. apply map_res_no_panic. intros x.
  destruct (gindex_split0 22 58 x) as (h & ->). reflexivity.
Qed.

Lemma realm_parse_total name lines : no_panic (realm_parse name lines).
Proof.
  unfold realm_parse.
  pose proof (fold_res_inv realm_line rinv realm_line_inv lines (realm_init name)) as K.
  specialize (K ltac:(split; cbn; [lia|intros; lia])).
  destruct (fold_res realm_line (realm_init name) lines) as [st| |]; [|reflexivity|contradiction].
  cbn [bind]. apply no_panic_bind; [apply kpasswd_default_total|reflexivity].
Qed.

(* The slice handed to the realm parser is lines[start+1 : i]; it is taken only when start <> i, and
   start <= i <= len(lines) holds throughout, start being the index of an earlier line. *)
Lemma realms_loop_total all : forall rest i name start c acc v4,
  0 <= start <= i -> i + zlen rest = zlen all ->
  no_panic (realms_loop all rest i name start c acc v4).
Proof.
  induction rest as [|l0 rest IH]; intros i name start c acc v4 Hs Hi; cbn [realms_loop].
  - destruct (c =? 0); reflexivity.
  - rewrite zlen_cons in Hi. pose proof (zlen_nonneg rest) as Hr.
    set (l := trim_space (strip_comment l0)).
    destruct (is_nil l); [apply IH; lia|].
    destruct ((c =? 0) && negb (has_any_of_eq_braces l)); [reflexivity|].
    set (opens := contains_byte 123 l). destruct (opens && negb (contains_byte 61 l)); [reflexivity|].
    set (c1 := if opens then c + 1 else c).
    apply no_panic_bind.
    { destruct (opens && (c1 =? 1)); [|reflexivity].
      destruct (gindex_split0 30 61 l) as (h & ->). reflexivity. }
    intros [name1 start1] Ens.
    assert (0 <= start1 <= i) as Hs1.
    { destruct (opens && (c1 =? 1)); [|injection Ens as _ <-; exact Hs].
      apply bind_ok in Ens. destruct Ens as (p0 & _ & E). injection E as _ <-. lia. }
    destruct (contains_byte 125 l); [|apply IH; lia].
    destruct (c1 <? 1); [reflexivity|]. destruct (c1 - 1 =? 0); [|apply IH; lia].
    destruct (Z.eqb_spec start1 i); [reflexivity|].
    rewrite gslice_ok by lia. cbn [bind].
    apply no_panic_bind; [apply realm_parse_total|]. intros [r rv4] _. apply IH; lia.
Qed.

Lemma parse_realms_total lines : no_panic (parse_realms lines).
Proof. unfold parse_realms. apply realms_loop_total; lia. Qed.

(* section starts are line counts taken while the line list grows: lo <= s1 <= s2 <= ... <= n *)
Fixpoint secs_wf (lo : Z) (secs : list (Z * Z)) (n : Z) : Prop :=
  match secs with
  | [] => lo <= n
  | (s, _) :: r => lo <= s /\ secs_wf s r n
  end.

Lemma secs_wf_app secs tail : forall lo n n', secs_wf lo secs n -> secs_wf n tail n' -> secs_wf lo (secs ++ tail) n'.
Proof.
  induction secs as [|[s k0] r IH]; intros lo n n' H Ht; cbn [app secs_wf] in *.
  - destruct tail as [|[s k] t]; cbn [secs_wf] in *; [lia|]. split; [lia|apply Ht].
  - split; [apply H|]. eapply IH; [apply H|exact Ht].
Qed.

Lemma secs_wf_le secs : forall lo n, secs_wf lo secs n -> lo <= n.
Proof.
  induction secs as [|[s k0] r IH]; intros lo n H; cbn in *; [lia|].
  destruct H as [H1 H2]. specialize (IH _ _ H2). lia.
Qed.

Lemma scan_sections_wf ls : forall lines secs, secs_wf 0 secs (zlen lines) ->
  secs_wf 0 (snd (scan_sections ls lines secs)) (zlen (fst (scan_sections ls lines secs))).
Proof.
  induction ls as [|l r IH]; intros lines secs H; cbn [scan_sections]; [exact H|].
  assert (forall k, secs_wf 0 (secs ++ [(zlen lines, k)]) (zlen lines)) as Hnew
    by (intros k; apply (secs_wf_app _ _ _ _ _ H); cbn; lia).
  destruct (re_comment l); [now apply IH|].
  destruct (re_section S_libdefaults l); [apply IH, Hnew|].
  destruct (re_section S_realms l); [apply IH, Hnew|].
  destruct (re_section S_domain_realm l); [apply IH, Hnew|].
  destruct (re_any_section l); [apply IH, Hnew|].
  apply IH. rewrite <- (app_nil_r secs). apply (secs_wf_app _ _ _ _ _ H). cbn [secs_wf].
  rewrite zlen_app, zlen_cons, zlen_nil. lia.
Qed.

Lemma run_sections_total allsecs lines : forall todo lo c,
  0 <= lo -> secs_wf lo todo (zlen lines) -> no_panic (run_sections allsecs todo lines c).
Proof.
  induction todo as [|[start k0] rest IH]; intros lo c Hlo H; cbn [run_sections]; [reflexivity|].
  cbn [secs_wf] in H. destruct H as [H1 H2].
  set (stop := match rest with [] => zlen lines | (s2, _) :: _ => s2 end).
  assert (start <= stop <= zlen lines) as Hst.
  { unfold stop. destruct rest as [|[s2 k2] rest']; cbn [secs_wf] in H2; [lia|].
    destruct H2 as [H3 H4]. pose proof (secs_wf_le _ _ _ H4). lia. }
  rewrite gslice_ok by lia. cbn [bind].
  assert (forall c', no_panic (run_sections allsecs rest lines c')) as Hrest
    by (intros c'; apply IH with (lo := start); [lia|exact H2]).
  destruct (kind_of start allsecs 0 =? 1).
  { apply no_panic_bind; [apply ld_parse_total|]. intros l _. apply Hrest. }
  destruct (kind_of start allsecs 0 =? 2).
  { apply no_panic_bind; [apply parse_realms_total|]. intros [rs v4] _. apply Hrest. }
  destruct (kind_of start allsecs 0 =? 3).
  { apply no_panic_bind; [apply dr_parse_total|]. intros d _. apply Hrest. }
  apply Hrest.
Qed.

Theorem parse_total : forall client_keytab k5login_dir text,
  is_panic (parse_config client_keytab k5login_dir text) = false.
Proof.
  intros ck kd text. unfold parse_config.
  destruct (negb (is_ascii text) || (max_text <=? zlen text)); [reflexivity|].
  pose proof (scan_sections_wf (scan_lines text) [] [] ltac:(cbn; lia)) as W.
  destruct (scan_sections (scan_lines text) [] []) as [lines secs]. cbn [fst snd] in W.
  apply run_sections_total with (lo := 0); [lia|exact W].
Qed.

(* a non-blank line without '=' in [libdefaults] or [domain_realm] *)
Theorem ld_line_no_equals_rejected : forall l line,
  trim_space (strip_comment line) <> [] -> contains_byte 61 (trim_space (strip_comment line)) = false ->
  ld_line l line = Err invalid.
Proof.
  intros l line Hn He. unfold ld_line. destruct (trim_space (strip_comment line)); [congruence|].
  cbn [is_nil]. now rewrite He.
Qed.

Theorem dr_line_no_equals_rejected : forall d line,
  trim_space (strip_comment line) <> [] -> contains_byte 61 (strip_comment line) = false ->
  dr_line d line = Err invalid.
Proof.
  intros d line Hn He. unfold dr_line. destruct (trim_space (strip_comment line)); [congruence|].
  cbn [is_nil]. now rewrite He.
Qed.

Lemma fold_res_err {A S} (f : S -> A -> res S) a x b s e :
  (forall s', f s' x = Err e) -> no_panic (fold_res f s a) -> is_ok (fold_res f s (a ++ x :: b)) = false.
Proof.
  intros H. revert s. induction a as [|y a IH]; intros s N; cbn.
  - now rewrite H.
  - cbn in N. destruct (f s y); cbn in *; [apply IH; exact N|reflexivity|discriminate].
Qed.

Theorem ld_section_no_equals_rejected : forall l a line b,
  trim_space (strip_comment line) <> [] -> contains_byte 61 (trim_space (strip_comment line)) = false ->
  is_ok (ld_parse_lines l (a ++ line :: b)) = false.
Proof.
  intros l a line b Hn He. unfold ld_parse_lines.
  apply (fold_res_err ld_line a line b l invalid); [|apply ld_parse_total].
  intros l'. now apply ld_line_no_equals_rejected.
Qed.

(* inside a realm block (top level or nested) a non-blank line with neither '=' nor '}' *)
Theorem realm_line_no_equals_rejected : forall st line,
  (rs_ignore st && (0 <? rs_c st) && negb (contains_byte 123 line) && negb (contains_byte 125 line)) = false ->
  trim_space (strip_comment line) <> [] ->
  contains_byte 61 (trim_space (strip_comment line)) = false ->
  contains_byte 125 (trim_space (strip_comment line)) = false ->
  realm_line st line = Err invalid.
Proof.
  intros st line H0 Hn He Hc. unfold realm_line. rewrite H0.
  destruct (trim_space (strip_comment line)); [congruence|]. cbn [is_nil]. now rewrite He, Hc.
Qed.

Theorem realm_line_extra_close_rejected : forall st line,
  rs_c st = 0 -> rs_ignore st = false ->
  contains_byte 125 (trim_space (strip_comment line)) = true ->
  contains_byte 123 (trim_space (strip_comment line)) = false ->
  realm_line st line = Err invalid.
Proof.
  intros st line Hc Hi Hcl Hop. unfold realm_line. rewrite Hc, Hi. cbn [andb].
  destruct (trim_space (strip_comment line)) eqn:E; [discriminate|]. cbn [is_nil].
  rewrite Hcl, Hop. rewrite andb_false_r. cbn [negb andb orb]. reflexivity.
Qed.

(* [realms]: a block that is never closed (fix-4) *)
Lemma realms_loop_unterminated all : forall rest i name start c acc v4,
  0 < c ->
  Forall (fun l0 => contains_byte 125 (trim_space (strip_comment l0)) = false) rest ->
  is_ok (realms_loop all rest i name start c acc v4) = false.
Proof.
  induction rest as [|l0 rest IH]; intros i name start c acc v4 Hc H; cbn [realms_loop].
  - destruct (Z.eqb_spec c 0); [lia|reflexivity].
  - inversion H as [|? ? Hl Hr]; subst. set (l := trim_space (strip_comment l0)) in *.
    destruct (is_nil l); [now apply IH|].
    destruct (Z.eqb_spec c 0); [lia|]. cbn [andb].
    destruct (contains_byte 123 l); cbn [andb].
    + destruct (contains_byte 61 l); cbn [negb]; [|reflexivity].
      destruct (c + 1 =? 1).
      * destruct (gindex 30 (split_byte 61 l) 0); cbn [bind]; try reflexivity. rewrite Hl. apply IH; [lia|exact Hr].
      * cbn [bind]. rewrite Hl. apply IH; [lia|exact Hr].
    + cbn [bind]. rewrite Hl. now apply IH.
Qed.

Theorem realms_unterminated_rejected : forall name_line body,
  contains_byte 123 (trim_space (strip_comment name_line)) = true ->
  contains_byte 125 (trim_space (strip_comment name_line)) = false ->
  Forall (fun l0 => contains_byte 125 (trim_space (strip_comment l0)) = false) body ->
  is_ok (parse_realms (name_line :: body)) = false.
Proof.
  intros nl body Hop Hcl Hb. unfold parse_realms. cbn [realms_loop].
  set (l := trim_space (strip_comment nl)) in *.
  destruct (is_nil l) eqn:En; [destruct l; [discriminate Hop|discriminate En]|].
  unfold has_any_of_eq_braces. rewrite Hop. rewrite orb_true_r. cbn [orb negb andb].
  destruct (contains_byte 61 l); cbn [negb]; [|reflexivity].
  change (0 + 1 =? 1) with true. cbn iota.
  destruct (gindex 30 (split_byte 61 l) 0); cbn [bind]; try reflexivity.
  rewrite Hcl. apply realms_loop_unterminated; [lia|exact Hb].
Qed.

(* the invalid shapes of the harness, on concrete text (every one is an error, none a panic) *)
Definition rejected_text (t : string) : Prop :=
  is_ok (parse_config [] [] (bs t)) = false /\ is_panic (parse_config [] [] (bs t)) = false.
Arguments rejected_text t%string.
Notation bad := rejected_text (only parsing).

Example invalid_rejected_examples :
  bad "[libdefaults]
 forwardable
" /\
  bad "[libdefaults]
 forwardable = maybe
" /\
  bad "[libdefaults]
 ticket_lifetime = 1x
" /\
  bad "[realms]
 A.B = {
  kdc = k1
" /\
  bad "[realms]
 A.B = {
  kdc = k1
 }
 }
" /\
  bad "[realms]
 A.B = { kdc = k1 }
" /\
  bad "[realms]
 A.B = {
  kdc k1
 }
" /\
  bad "[realms]
 A.B {
  kdc = k1
 }
" /\
  bad "[realms]
 stray words
 A.B = {
  kdc = k1
 }
" /\
  bad "[realms]
 A.B = {
  auth_to_local_names = {
   x = y
 }
" /\
  bad "[domain_realm]
 .example.com EXAMPLE.COM
".
Proof. unfold rejected_text. repeat split; vm_compute; reflexivity. Qed.

(* a nested block: its relations are skipped, the realm is complete *)
Example nested_block_example :
  match parse_config [] [] (bs "[realms]
 A.B = {
  kdc = k1
  auth_to_local_names = {
   kdc = evil
  }
  kdc = k2:750
  admin_server = a1
 }
") with
  | Ok c => c_realms c = [ {| r_name := bs "A.B"; r_admin := [bs "a1"]; r_dd := []; r_kdc := [bs "k1:88"; bs "k2:750"];
                              r_kpw := [bs "a1:464"]; r_mkdc := [] |} ] /\ c_v4 c = false
  | _ => False
  end.
Proof. vm_compute. split; reflexivity. Qed.

(* per-line halves of parse (render c) = c *)
(* a character of a key or value: not '=', not a comment character *)
Definition plain (c : Z) : bool := negb (c =? 61) && negb (is_comment_char c).

Lemma space_plain c : is_space c = true -> plain c = true /\ lower_byte c = c /\ (c =? 123) = false /\ (c =? 125) = false.
Proof.
  unfold is_space, plain, is_comment_char, lower_byte. rewrite !orb_true_iff, !Z.eqb_eq. intros H.
  assert (c = 9 \/ c = 10 \/ c = 11 \/ c = 12 \/ c = 13 \/ c = 32) as R by tauto. clear H.
  destruct R as [->|[->|[->|[->|[->| ->]]]]]; repeat split; reflexivity.
Qed.

Lemma all_space_plain a : all_space a -> forallb plain a = true.
Proof. apply forallb_imp. intros x H. now apply space_plain. Qed.

Lemma all_space_lower a : all_space a -> to_lower a = a.
Proof.
  unfold all_space, to_lower. induction a as [|c a IH]; [reflexivity|]. cbn. rewrite andb_true_iff. intros [Hc Ha].
  destruct (space_plain c Hc) as (_ & -> & _). now rewrite IH.
Qed.

Lemma plain_no_eq s : forallb plain s = true -> ~ In 61 s.
Proof. apply (forallb_not_in plain). reflexivity. Qed.

Lemma plain_no_comment s : forallb plain s = true -> forallb (fun b => negb (is_comment_char b)) s = true.
Proof. apply forallb_imp. intros x H. unfold plain in H. now apply andb_true_iff in H. Qed.

(* the comment part of a line: nothing, or text that starts with '#' or ';' *)
Definition comment_tail (cmt : bytes) : Prop := cmt = [] \/ exists c r, cmt = c :: r /\ is_comment_char c = true.

Definition no_comment_char (s : bytes) : Prop := forallb (fun b => negb (is_comment_char b)) s = true.

Lemma strip_comment_tail s cmt : no_comment_char s -> comment_tail cmt -> strip_comment (s ++ cmt) = s.
Proof.
  intros Hs [->|(c & r & -> & Hc)]; unfold strip_comment.
  - rewrite app_nil_r. apply take_until_all, Hs.
  - apply take_until_app; [apply Hs|exact Hc].
Qed.

Lemma fields_aux_skip p ws s : forallb p ws = true -> fields_aux p (ws ++ s) [] = fields_aux p s [].
Proof.
  induction ws as [|c ws IH]; [reflexivity|]. cbn. rewrite andb_true_iff. intros [-> H]. now apply IH.
Qed.

Lemma parse_val_pad k ws val : all_space ws -> parse_val k (ws ++ val) = parse_val k val.
Proof.
  intros H. destruct k; cbn [parse_val]; unfold parse_boolean, parse_duration; rewrite ?(trim_space_drop_left ws val H); try reflexivity.
  unfold fields_by. rewrite fields_aux_skip; [reflexivity|].
  unfold all_space in H. rewrite forallb_forall in *. intros x Hx. unfold is_list_sep. now rewrite (H _ Hx).
Qed.

Lemma no_edge_app a b : a <> [] -> b <> [] ->
  match a with [] => True | c :: _ => is_space c = false end ->
  match rev b with [] => True | c :: _ => is_space c = false end ->
  forall mid, no_edge_space (a ++ mid ++ b).
Proof.
  intros Ha Hb H1 H2 mid. split.
  - destruct a; [congruence|exact H1].
  - rewrite !rev_app_distr. destruct (rev b) eqn:E; [|exact H2].
    apply (f_equal (@rev Z)) in E. rewrite rev_involutive in E. cbn in E. congruence.
Qed.

Section RelationLine.
  Variables (ws1 key' ws2 ws3 val ws4 cmt : bytes).
  Hypothesis Hw1 : all_space ws1.
  Hypothesis Hw2 : all_space ws2.
  Hypothesis Hw3 : all_space ws3.
  Hypothesis Hw4 : all_space ws4.
  Hypothesis Hk : forallb plain key' = true.
  Hypothesis Hv : forallb plain val = true.
  Hypothesis Hke : no_edge_space key'.
  Hypothesis Hve : no_edge_space val.
  Hypothesis Hkn : key' <> [].
  Hypothesis Hvn : val <> [].
  Hypothesis Hc : comment_tail cmt.

  (* the rendered line:  <ws> key <ws> = <ws> value <ws> [comment] *)
  Definition rendered : bytes := ws1 ++ (key' ++ ws2 ++ 61 :: ws3 ++ val) ++ ws4 ++ cmt.
  Definition core : bytes := key' ++ ws2 ++ 61 :: ws3 ++ val.

  Lemma rendered_strip : strip_comment rendered = ws1 ++ core ++ ws4.
  Proof.
    unfold rendered. fold core.
    replace (ws1 ++ core ++ ws4 ++ cmt) with ((ws1 ++ core ++ ws4) ++ cmt) by (now rewrite <- !app_assoc).
    apply strip_comment_tail; [|exact Hc].
    unfold core, no_comment_char. rewrite !forallb_app. cbn [forallb]. rewrite !forallb_app.
    rewrite (plain_no_comment _ (all_space_plain _ Hw1)), (plain_no_comment _ (all_space_plain _ Hw2)),
            (plain_no_comment _ (all_space_plain _ Hw3)), (plain_no_comment _ (all_space_plain _ Hw4)),
            (plain_no_comment _ Hk), (plain_no_comment _ Hv).
    reflexivity.
  Qed.

  Lemma core_no_edge : no_edge_space core.
  Proof.
    unfold core.
    replace (key' ++ ws2 ++ 61 :: ws3 ++ val) with (key' ++ (ws2 ++ 61 :: ws3) ++ val)
      by (now rewrite <- !app_assoc).
    apply no_edge_app; [exact Hkn|exact Hvn|apply Hke|apply Hve].
  Qed.

  Lemma rendered_trim : trim_space (strip_comment rendered) = core.
  Proof. rewrite rendered_strip. apply trim_space_pad; [exact Hw1|exact Hw4|apply core_no_edge]. Qed.

  Lemma core_has_eq : contains_byte 61 core = true.
  Proof. apply contains_byte_in. unfold core. apply in_or_app; right. apply in_or_app; right. left; reflexivity. Qed.

  Lemma core_split : split_byte 61 core = [key' ++ ws2; ws3 ++ val].
  Proof.
    unfold core. rewrite app_assoc.
    apply split_byte_two; apply plain_no_eq; rewrite forallb_app;
      now rewrite ?Hk, ?Hv, ?(all_space_plain _ Hw2), ?(all_space_plain _ Hw3).
  Qed.

  Lemma core_not_nil : is_nil core = false.
  Proof. unfold core. destruct key'; [congruence|reflexivity]. Qed.

  Lemma lower_no_edge : no_edge_space (to_lower key').
  Proof.
    assert (forall c, is_space c = false -> is_space (lower_byte c) = false) as L.
    { intros c H. unfold lower_byte. destruct ((65 <=? c) && (c <=? 90)) eqn:E; [|exact H].
      rewrite andb_true_iff, !Z.leb_le in E. unfold is_space. repeat (apply orb_false_iff; split); apply Z.eqb_neq; lia. }
    destruct Hke as [H1 H2]. unfold to_lower. split.
    - destruct key'; [exact I|]. cbn. now apply L.
    - rewrite <- map_rev. destruct (rev key'); [exact I|]. cbn. now apply L.
  Qed.

  Lemma key_trim ws : all_space ws -> trim_space (to_lower (ws ++ key' ++ ws2)) = to_lower key'.
  Proof.
    intros Hws. unfold to_lower. rewrite !map_app. fold (to_lower ws) (to_lower key') (to_lower ws2).
    rewrite (all_space_lower _ Hws), (all_space_lower _ Hw2).
    apply trim_space_pad; [exact Hws|exact Hw2|apply lower_no_edge].
  Qed.

  Lemma key_of_p0 : trim_space (to_lower (key' ++ ws2)) = to_lower key'.
  Proof. exact (key_trim [] eq_refl). Qed.

  Lemma ld_line_rendered l :
    ld_line l rendered =
    match lookup (to_lower key') ld_keys with
    | None => Ok l
    | Some k => do v <- parse_val k val; match v with Some v => Ok (ld_set (to_lower key') v l) | None => Ok l end
    end.
  Proof.
    unfold ld_line. rewrite rendered_trim, core_not_nil, core_has_eq, core_split. cbn [negb].
    rewrite gindex_0. cbn [bind]. rewrite key_of_p0. destruct (lookup (to_lower key') ld_keys); [|reflexivity].
    rewrite gindex_1. cbn [bind]. now rewrite (parse_val_pad _ ws3 val Hw3).
  Qed.

  Theorem ld_line_relation_partial : forall l k v,
    lookup (to_lower key') ld_keys = Some k -> parse_val k val = Ok (Some v) ->
    ld_line l rendered = Ok (ld_set (to_lower key') v l).
  Proof. intros l k v Hl Hp. now rewrite ld_line_rendered, Hl, Hp. Qed.

  Theorem ld_line_unknown_partial : forall l,
    lookup (to_lower key') ld_keys = None -> ld_line l rendered = Ok l.
  Proof. intros l Hl. now rewrite ld_line_rendered, Hl. Qed.

  Theorem dr_line_relation_partial : forall d,
    dr_line d rendered = Ok ((to_lower key', val) :: d).
  Proof.
    intros d. unfold dr_line. rewrite rendered_strip.
    assert (trim_space (ws1 ++ core ++ ws4) = core) as E by (apply trim_space_pad; [exact Hw1|exact Hw4|apply core_no_edge]).
    rewrite E, core_not_nil.
    assert (contains_byte 61 (ws1 ++ core ++ ws4) = true) as ->.
    { apply contains_byte_in. apply in_or_app; right. apply in_or_app; left. apply contains_byte_in, core_has_eq. }
    cbn [negb].
    assert (split_byte 61 (ws1 ++ core ++ ws4) = [ws1 ++ key' ++ ws2; ws3 ++ val ++ ws4]) as ->.
    { unfold core. replace (ws1 ++ (key' ++ ws2 ++ 61 :: ws3 ++ val) ++ ws4) with ((ws1 ++ key' ++ ws2) ++ 61 :: (ws3 ++ val ++ ws4))
        by (rewrite <- !app_assoc; cbn; now rewrite <- !app_assoc).
      apply split_byte_two; apply plain_no_eq; rewrite !forallb_app;
        now rewrite ?Hk, ?Hv, ?(all_space_plain _ Hw1), ?(all_space_plain _ Hw2), ?(all_space_plain _ Hw3), ?(all_space_plain _ Hw4). }
    rewrite gindex_0, gindex_1. cbn [bind]. f_equal. f_equal. f_equal.
    - exact (key_trim ws1 Hw1).
    - apply trim_space_pad; [exact Hw3|exact Hw4|exact Hve].
  Qed.

  (* a realm block, outside nested blocks *)
  Theorem realm_line_relation_partial : forall st,
    rs_c st = 0 ->
    contains S_v4_tag core = false -> contains_byte 123 core = false -> contains_byte 125 core = false ->
    realm_line st rendered = Ok (realm_relation st (to_lower key') val).
  Proof.
    intros st Hc0 Hv4 Hop Hcl. unfold realm_line. rewrite Hc0.
    change (0 <? 0) with false. rewrite andb_false_r. cbn [andb].
    rewrite rendered_trim.
    rewrite core_not_nil, core_has_eq, Hv4, Hop, Hcl. cbn [negb andb orb]. rewrite !orb_false_r.
    change (0 <? 0) with false. rewrite andb_false_r.
    rewrite core_split, gindex_0, gindex_1. cbn [bind]. rewrite key_of_p0.
    rewrite (trim_space_drop_left ws3 val Hw3), (trim_space_id val Hve).
    f_equal. f_equal. unfold rs_flow. rewrite <- Hc0. destruct st; reflexivity.
  Qed.
End RelationLine.

(* the pieces combined on one kind of relation *)
Definition bool_keys : list bytes := Eval cbv in
  [ bs "allow_weak_crypto"; bs "canonicalize"; bs "dns_canonicalize_hostname"; bs "dns_lookup_kdc";
    bs "dns_lookup_realm"; bs "forwardable"; bs "ignore_acceptor_hostname"; bs "k5login_authoritative";
    bs "noaddresses"; bs "proxiable"; bs "rdns"; bs "verify_ap_req_nofail" ].

Lemma bool_key_facts key : In key bool_keys ->
  forallb plain key = true /\ no_edge_space key /\ key <> [] /\ to_lower key = key /\ lookup key ld_keys = Some KBool.
Proof.
  intros H. cbn in H.
  repeat (destruct H as [<-|H]; [repeat split; try reflexivity; discriminate|]). destruct H.
Qed.

Lemma bool_spelling_facts sp v : In (sp, v) bool_table ->
  forallb plain sp = true /\ no_edge_space sp /\ sp <> [] /\ parse_val KBool sp = Ok (Some (VB v)).
Proof.
  intros H. cbn in H.
  repeat (destruct H as [H|H]; [inversion H; subst; repeat split; try reflexivity; discriminate|]). destruct H.
Qed.

Theorem ld_line_bool_partial : forall l key ws1 ws2 ws3 ws4 cmt sp v,
  In key bool_keys -> In (sp, v) bool_table ->
  all_space ws1 -> all_space ws2 -> all_space ws3 -> all_space ws4 -> comment_tail cmt ->
  ld_line l (rendered ws1 key ws2 ws3 sp ws4 cmt) = Ok (ld_set key (VB v) l).
Proof.
  intros l key ws1 ws2 ws3 ws4 cmt sp v Hk Hs H1 H2 H3 H4 Hc.
  destruct (bool_key_facts key Hk) as (K1 & K2 & K3 & K4 & K5).
  destruct (bool_spelling_facts sp v Hs) as (S1 & S2 & S3 & S4).
  rewrite <- K4 at 2. apply ld_line_relation_partial with (k := KBool); try assumption. now rewrite K4.
Qed.

Example ld_line_bool_example :
  ld_line (ld_init [] []) (bs "   forwardable	 = 	yes  # comment = { } ; x")
  = Ok (ld_set (bs "forwardable") (VB true) (ld_init [] [])) /\
  bs "   forwardable	 = 	yes  # comment = { } ; x"
  = rendered (bs "   ") (bs "forwardable") (bs "	 ") (bs " 	") (bs "yes") (bs "  ") (bs "# comment = { } ; x").
Proof. split; vm_compute; reflexivity. Qed.
