(* Complete characterisation of the request sequence of Client.Do: what every non-final exchange looked
   like, what is returned, and which response it is. *)
From Gokrb5.lib Require Import Bytes JV.
From Gokrb5.model Require Import HttpClient.
From Gokrb5.proofs Require Import HttpClientProofs.
Open Scope nat_scope.

(* the k-th exchange (request flags fl, script offset i) was a bare challenge to a token-less request answered
   by a request with a token, or a redirect followed by a token-less request *)
Definition step_ok (script : nat -> resp) (i : nat) (fl : list bool) (k : nat) : Prop :=
  (script (i + k) = R401Nego /\ nth k fl false = false /\ nth (S k) fl false = true)
  \/ (script (i + k) = R302 /\ nth (S k) fl false = false).

Definition returned_ok (script : nat -> resp) (i : nat) (fl : list bool) (o : outcome) : Prop :=
  let last := i + (length fl - 1) in
  match o with
  | Final r _ => r = script last /\ r <> R302 /\ (r = R401Nego -> nth (length fl - 1) fl false = true)
  | TooManyRedirects _ => script last = R302
  | OutOfFuel => False
  end.

Lemma returned_ok_shift script i b c fl o :
  returned_ok script (S i) (c :: fl) o -> returned_ok script i (b :: c :: fl) o.
Proof.
  unfold returned_ok. cbn [length].
  replace (S (S (length fl)) - 1) with (S (length fl)) by lia. replace (S (length fl) - 1) with (length fl) by lia.
  replace (i + S (length fl)) with (S i + length fl) by lia. exact (fun H => H).
Qed.

Lemma step_ok_shift script i b fl k : step_ok script (S i) fl k -> step_ok script i (b :: fl) (S k).
Proof. unfold step_ok. replace (i + S k) with (S i + k) by lia. exact (fun H => H). Qed.

Definition traced (script : nat -> resp) (i : nat) (authed : bool) (sent : list bool) (o : outcome) : Prop :=
  exists ext,
    sent_of o = sent ++ authed :: ext /\
    returned_ok script i (authed :: ext) o /\
    (forall k, k < length ext -> step_ok script i (authed :: ext) k).

Lemma do_trace : forall fuel script i redirects authed sent,
  do_ fuel script i redirects authed sent <> OutOfFuel ->
  traced script i authed sent (do_ fuel script i redirects authed sent).
Proof.
  induction fuel as [|f IH]; intros script i redirects authed sent Hne; [cbn in Hne; congruence|].
  cbn [do_] in *.
  (* this response ends the call *)
  assert (Hlast : forall o, sent_of o = sent ++ [authed] -> returned_ok script i [authed] o ->
            traced script i authed sent o).
  { intros o E R. exists []. split; [exact E|]. split; [exact R|]. intros k Hk. cbn in Hk. lia. }
  assert (Hfinal : forall r, script i = r -> r <> R302 -> (r = R401Nego -> authed = true) ->
            traced script i authed sent (Final r (sent ++ [authed]))).
  { intros r Hr H1 H2. apply Hlast; [reflexivity|]. unfold returned_ok. cbn [length nth].
    replace (i + (1 - 1)) with i by lia. auto. }
  (* this response is followed by another request, which the first exchange of the trace accounts for *)
  assert (Hnext : forall redirects' authed',
            step_ok script i [authed; authed'] 0 ->
            do_ f script (S i) redirects' authed' (sent ++ [authed]) <> OutOfFuel ->
            traced script i authed sent (do_ f script (S i) redirects' authed' (sent ++ [authed]))).
  { intros r' a' Hstep Hne'. destruct (IH script (S i) r' a' (sent ++ [authed]) Hne') as (ext & A & B & C).
    exists (a' :: ext). split; [rewrite A, <- app_assoc; reflexivity|]. split; [apply returned_ok_shift, B|].
    intros [|k] Hk; [exact Hstep|]. cbn [length] in Hk. apply step_ok_shift, C. lia. }
  destruct (script i) eqn:Es; try (apply Hfinal; [reflexivity|discriminate|discriminate]).
  - destruct authed; [apply Hfinal; [reflexivity|discriminate|reflexivity]|].
    apply Hnext; [|exact Hne]. left. rewrite Nat.add_0_r. auto.
  - destruct (10 <=? redirects + 1).
    + apply Hlast; [reflexivity|]. unfold returned_ok. cbn [length]. replace (i + (1 - 1)) with i by lia. exact Es.
    + apply Hnext; [|exact Hne]. right. rewrite Nat.add_0_r. auto.
Qed.

(* From a fresh client: the flags of the requests sent start with a token-less request; every exchange but
   the last is a bare challenge answered with a token or a redirect followed without one; what is returned is
   the server's response to the last request sent, which is neither a redirect (unless the redirect limit is
   the error returned) nor a bare challenge that has not been answered with a token. *)
Theorem do_trace_fresh script :
  let o := do_ 64 script 0 0 false [] in
  exists ext, sent_of o = false :: ext /\ returned_ok script 0 (false :: ext) o /\
              (forall k, k < length ext -> step_ok script 0 (false :: ext) k).
Proof.
  cbn zeta. destruct (do_terminates script) as (o & E & Hne & _). subst o.
  destruct (do_trace 64 script 0 0 false [] Hne) as (ext & A & B & C).
  exists ext. split; [exact A|]. split; assumption.
Qed.

(* a bare challenge to a token-less request is always answered: by a retry carrying a token *)
Corollary challenge_answered script k :
  let fl := sent_of (do_ 64 script 0 0 false []) in
  S k < length fl -> script k = R401Nego -> nth k fl true = false -> nth (S k) fl false = true.
Proof.
  cbn zeta. destruct (do_trace_fresh script) as (ext & A & _ & C). cbn zeta in A. rewrite A.
  intros Hk Hs Hn. cbn [length] in Hk. assert (k < length ext) as Hk' by lia.
  destruct (C k Hk') as [(C1 & C2 & C3)|(C1 & _)]; [exact C3|]. cbn in C1. congruence.
Qed.

(* the request after a redirect never carries the token of the previous hop *)
Corollary redirect_drops_token script k :
  let fl := sent_of (do_ 64 script 0 0 false []) in
  S k < length fl -> script k = R302 -> nth (S k) fl true = false.
Proof.
  cbn zeta. destruct (do_trace_fresh script) as (ext & A & _ & C). cbn zeta in A. rewrite A.
  intros Hk Hs. cbn [length] in Hk. assert (k < length ext) as Hk' by lia.
  destruct (C k Hk') as [(C1 & C2 & C3)|(C1 & C2)].
  - cbn in C1. congruence.
  - rewrite (nth_indep _ true false) by (cbn [length]; lia). exact C2.
Qed.

(* a token is sent only in answer to a bare challenge, and never twice in a row *)
Theorem no_two_tokens_in_a_row script k :
  nth_error (sent_of (do_ 64 script 0 0 false [])) k = Some true ->
  nth_error (sent_of (do_ 64 script 0 0 false [])) (S k) = Some true -> False.
Proof.
  destruct (do_trace_fresh script) as (ext & A & _ & C). cbn zeta in A. rewrite A. intros H1 H2.
  assert (k < length ext) as Hk by (apply nth_error_Some; cbn in H2; congruence).
  apply (nth_error_nth _ _ false) in H1, H2.
  destruct (C k Hk) as [(_ & C2 & _)|(_ & C2)]; congruence.
Qed.

Example trace_example :
  returned_ok (script_of [R401Nego; R302; R401Nego] R200) 0 [false; true; false; true]
    (do_ 64 (script_of [R401Nego; R302; R401Nego] R200) 0 0 false []).
Proof. cbn. repeat split; discriminate. Qed.
