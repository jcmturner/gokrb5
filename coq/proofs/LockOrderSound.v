(* Soundness of the lock-order checker with respect to call chains.  `nested evs h l` says: along some chain of
   same-package calls of ANY depth, lock l is acquired while lock h is held.  If the table of "locks a call may
   acquire" is closed under one more level of calls (a check done by computation on the generated events) and every
   edge computed from it is ranked upwards, then every nested pair is ranked upwards. *)
From Coq Require Import String List Bool Arith Lia.
Import ListNotations.
From Gokrb5.model Require Import LockOrder.
Open Scope string_scope.

Inductive reach_acq (evs : list lev) : string -> string -> Prop :=
| RA_here f l held : In (Acq f l held) evs -> reach_acq evs f l
| RA_call f g held l : In (Call f g held) evs -> reach_acq evs g l -> reach_acq evs f l.

Inductive nested (evs : list lev) : string -> string -> Prop :=
| N_here f l held h : In (Acq f l held) evs -> In h held -> nested evs h l
| N_call f g held h l : In (Call f g held) evs -> In h held -> reach_acq evs g l -> nested evs h l.

Lemma mem_In s l : mem s l = true <-> In s l.
Proof.
  unfold mem. rewrite existsb_exists. split.
  - intros (x & Hx & E). apply String.eqb_eq in E. now subst.
  - intros H. exists s. split; [exact H|apply String.eqb_refl].
Qed.

Lemma add_In s x l : In s (add x l) <-> s = x \/ In s l.
Proof.
  unfold add. destruct (mem x l) eqn:E.
  - apply mem_In in E. split; [auto|]. intros [->|H]; auto.
  - cbn. intuition.
Qed.

Lemma union_In s a b : In s (union a b) <-> In s a \/ In s b.
Proof.
  unfold union. induction a as [|x a IH]; cbn [fold_right]; [cbn; tauto|].
  rewrite add_In, IH. cbn. intuition.
Qed.

Lemma fns_In evs e : In e evs -> In (fn_of e) (fns evs).
Proof.
  unfold fns. induction evs as [|x evs IH]; intros H; [destruct H|].
  cbn [map fold_right]. rewrite add_In. destruct H as [->|H]; auto.
Qed.

Lemma step_acq_mono e evs cur f l : In l (step_acq evs cur f) -> In l (step_acq (e :: evs) cur f).
Proof.
  unfold step_acq. cbn [fold_right]. intros H. destruct e as [g l0 h|g c h|g w h].
  - destruct (String.eqb g f); [apply add_In; right|]; exact H.
  - destruct (String.eqb g f); [apply union_In; right|]; exact H.
  - exact H.
Qed.

Lemma step_acq_here evs cur f l held : In (Acq f l held) evs -> In l (step_acq evs cur f).
Proof.
  induction evs as [|e evs IH]; [intros []|]. intros [->|H]; [|apply step_acq_mono, IH, H].
  unfold step_acq. cbn [fold_right]. rewrite String.eqb_refl. apply add_In. left. reflexivity.
Qed.

Lemma step_acq_call evs cur f g l held : In (Call f g held) evs -> In l (cur g) -> In l (step_acq evs cur f).
Proof.
  intros Hin Hl. induction evs as [|e evs IH]; [destruct Hin|]. destruct Hin as [->|H]; [|apply step_acq_mono, IH, H].
  unfold step_acq. cbn [fold_right]. rewrite String.eqb_refl. apply union_In. left. exact Hl.
Qed.

Definition subset (a b : list string) : bool := forallb (fun s => mem s b) a.

Definition closed_table (evs : list lev) (t : table) : bool :=
  forallb (fun f => subset (step_acq evs (look t) f) (look t f)) (fns evs).

Lemma subset_In a b : subset a b = true -> forall s, In s a -> In s b.
Proof. unfold subset. rewrite forallb_forall. intros H s Hs. apply mem_In, H, Hs. Qed.

Theorem closed_table_complete evs t :
  closed_table evs t = true -> forall f l, reach_acq evs f l -> In l (look t f).
Proof.
  intros Hc f l R. unfold closed_table in Hc. rewrite forallb_forall in Hc.
  induction R as [f l held Hin|f g held l Hin R IH].
  - apply (subset_In _ _ (Hc f (fns_In evs _ Hin))). exact (step_acq_here _ _ _ _ _ Hin).
  - apply (subset_In _ _ (Hc f (fns_In evs _ Hin))). exact (step_acq_call _ _ _ _ _ _ Hin IH).
Qed.

(* edges_t, lock_order_ok_t, blocking_under_lock_t: the checks of model/LockOrder.v with the table as a parameter.  The
   generated obligation evaluates them on a table computed once (the _shared lemmas, which hold by conversion). *)
Definition edges_t (t : table) (evs : list lev) : list (string * string) :=
  flat_map (fun e =>
    match e with
    | Acq _ l held => map (fun h => (h, l)) held
    | Call _ c held => flat_map (fun h => map (fun l => (h, l)) (look t c)) held
    | Block _ _ _ => []
    end) evs.

Lemma edges_is_edges_t evs : edges evs = edges_t (may_acquire evs) evs.
Proof. reflexivity. Qed.

Theorem nested_in_edges evs t :
  closed_table evs t = true -> forall h l, nested evs h l -> In (h, l) (edges_t t evs).
Proof.
  intros Hc h l N. unfold edges_t. apply in_flat_map. destruct N as [f l held h Hin Hh|f g held h l Hin Hh R].
  - exists (Acq f l held). split; [exact Hin|]. apply in_map_iff. exists h. auto.
  - exists (Call f g held). split; [exact Hin|]. apply in_flat_map. exists h. split; [exact Hh|].
    apply in_map_iff. exists l. split; [reflexivity|]. apply (closed_table_complete evs t Hc). exact R.
Qed.

(* ---- the checker's verdict means: every nested pair goes strictly up in rank ---- *)
Definition lock_order_sound_check (ranks : list (string * nat)) (evs : list lev) : bool :=
  closed_table evs (may_acquire evs) && lock_order_ok ranks evs.

Theorem lock_order_check_sound ranks evs :
  lock_order_sound_check ranks evs = true ->
  forall h l, nested evs h l ->
  exists rh rl, rank_of ranks h = Some rh /\ rank_of ranks l = Some rl /\ rh < rl.
Proof.
  unfold lock_order_sound_check, lock_order_ok. intros H h l N.
  apply andb_true_iff in H. destruct H as [Hc H]. apply andb_true_iff in H. destruct H as [He _].
  rewrite forallb_forall in He. rewrite edges_is_edges_t in He.
  specialize (He (h, l) (nested_in_edges evs _ Hc h l N)). unfold edge_ok in He. cbn [fst snd] in He.
  destruct (rank_of ranks h) as [rh|]; [|discriminate]. destruct (rank_of ranks l) as [rl|]; [|discriminate].
  exists rh, rl. repeat split. apply Nat.ltb_lt. exact He.
Qed.

Definition lock_order_ok_t (ranks : list (string * nat)) (t : table) (evs : list lev) : bool :=
  forallb (edge_ok ranks) (edges_t t evs) &&
  forallb (fun e => match e with Acq _ l _ => match rank_of ranks l with Some _ => true | None => false end | _ => true end) evs.

Lemma lock_order_sound_check_shared ranks evs :
  (let t := may_acquire evs in closed_table evs t && lock_order_ok_t ranks t evs) = true ->
  lock_order_sound_check ranks evs = true.
Proof. exact (fun H => H). Qed.

Lemma lock_order_sound_check_ok ranks evs :
  lock_order_sound_check ranks evs = true -> lock_order_ok ranks evs = true.
Proof. unfold lock_order_sound_check. intros H. apply andb_true_iff in H. apply H. Qed.

(* in particular no lock class is acquired again while it is held, through any chain of calls *)
Corollary lock_order_no_reentry ranks evs :
  lock_order_sound_check ranks evs = true -> forall l, ~ nested evs l l.
Proof.
  intros H l N. destruct (lock_order_check_sound ranks evs H l l N) as (a & b & Ha & Hb & Hlt).
  rewrite Ha in Hb. injection Hb as <-. lia.
Qed.

(* ---- blocking channel operations under a lock ---- *)
Inductive reach_block (evs : list lev) : string -> Prop :=
| RB_here f w held : In (Block f w held) evs -> reach_block evs f
| RB_call f g held : In (Call f g held) evs -> reach_block evs g -> reach_block evs f.

Inductive blocks_under_lock (evs : list lev) : Prop :=
| BU_here f w h held : In (Block f w (h :: held)) evs -> blocks_under_lock evs
| BU_call f g h held : In (Call f g (h :: held)) evs -> reach_block evs g -> blocks_under_lock evs.

Definition closed_block (evs : list lev) (b : list string) : bool :=
  forallb (fun f => negb (step_block evs (fun c => mem c b) f) || mem f b) (fns evs).

Lemma step_block_here evs cur f w held : In (Block f w held) evs -> step_block evs cur f = true.
Proof.
  intros Hin. apply existsb_exists. exists (Block f w held). split; [exact Hin|apply String.eqb_refl].
Qed.

Lemma step_block_call evs cur f g held : In (Call f g held) evs -> cur g = true -> step_block evs cur f = true.
Proof.
  intros Hin Hc. apply existsb_exists. exists (Call f g held). split; [exact Hin|]. now rewrite String.eqb_refl, Hc.
Qed.

Theorem closed_block_complete evs b :
  closed_block evs b = true -> forall f, reach_block evs f -> In f b.
Proof.
  intros Hc f R. unfold closed_block in Hc. rewrite forallb_forall in Hc.
  (* a function of the event list that one closure step marks is in the closed list *)
  assert (forall e, In e evs -> step_block evs (fun c => mem c b) (fn_of e) = true -> In (fn_of e) b) as Closed.
  { intros e Hin T. specialize (Hc _ (fns_In evs e Hin)). rewrite T in Hc. apply mem_In, Hc. }
  induction R as [f w held Hin|f g held Hin R IH].
  - apply (Closed _ Hin). exact (step_block_here _ _ _ _ _ Hin).
  - apply (Closed _ Hin). exact (step_block_call _ _ _ _ _ Hin (proj2 (mem_In _ _) IH)).
Qed.

Definition no_block_sound_check (evs : list lev) : bool :=
  closed_block evs (may_block evs) && no_block_under_lock evs.

Definition blocking_under_lock_t (b : list string) (evs : list lev) : list (string * string) :=
  flat_map (fun e =>
    match e with
    | Block f w (_ :: _) => [(f, w)]
    | Call f c (_ :: _) => if mem c b then [(f, c)] else []
    | _ => []
    end) evs.

Lemma no_block_sound_check_shared evs :
  (let b := may_block evs in
   closed_block evs b && match blocking_under_lock_t b evs with [] => true | _ => false end) = true ->
  no_block_sound_check evs = true.
Proof. exact (fun H => H). Qed.

Lemma no_block_sound_check_ok evs : no_block_sound_check evs = true -> no_block_under_lock evs = true.
Proof. unfold no_block_sound_check. intros H. apply andb_true_iff in H. apply H. Qed.

Theorem no_block_check_sound evs : no_block_sound_check evs = true -> ~ blocks_under_lock evs.
Proof.
  unfold no_block_sound_check, no_block_under_lock. intros H B.
  apply andb_true_iff in H. destruct H as [Hc Hn].
  destruct (blocking_under_lock evs) as [|x xs] eqn:E; [|discriminate].
  assert (forall p, ~ In p (blocking_under_lock evs)) as Hempty by (rewrite E; intros p []).
  unfold blocking_under_lock in Hempty.
  destruct B as [f w h held Hin|f g h held Hin R].
  - apply (Hempty (f, w)). apply in_flat_map. exists (Block f w (h :: held)). split; [exact Hin|left; reflexivity].
  - apply (Hempty (f, g)). apply in_flat_map. exists (Call f g (h :: held)). split; [exact Hin|].
    pose proof (closed_block_complete evs _ Hc g R) as Hg. apply mem_In in Hg. rewrite Hg. left; reflexivity.
Qed.
