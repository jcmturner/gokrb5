(* Gokrb5.proofs.FramingProofs — the hand-assembled SPNEGO / GSS-API framing round-trips: a NegotiationToken
   alternative is read back as the same alternative with the same value; an initial context token is split
   into the same mechanism OID and inner token; a KRB5 mechanism token into OID, TOK_ID and message. *)
From Gokrb5.lib Require Import Bytes JV.
From Gokrb5.model Require Import Schema DER DERCodec Framing.
From Gokrb5.proofs Require Import DERBasic DEROid DERProofs.

Local Open Scope Z_scope.

(* NegotiationToken ::= CHOICE { [0] NegTokenInit, [1] NegTokenResp }: alternative n of the list is taken when
   no earlier alternative has the same tag *)
Theorem choice_decode_encode alts n t v b :
  alt_lookup alts (ident 2 true n) = Some (n, t) ->
  schema_ok t = true ->
  choice_encode n t v = Some b -> zlen b < 2 ^ 32 ->
  choice_decode alts b = Some (n, v).
Proof.
  intros HL Hok HE Hlen. unfold choice_encode in HE.
  destruct (tag_ok n) eqn:Ht; [|discriminate]. apply tag_ok_range in Ht.
  destruct (encode t v) as [e|] eqn:Ee; [|discriminate]. inversion HE; subst b. clear HE.
  pose proof (zlen_tlv (ident 2 true n) e) as Hz.
  unfold choice_decode. rewrite <- (app_nil_r (tlv _ e)).
  rewrite parse_tlv_tlv_ident by lia. rewrite HL.
  rewrite (decode_top_encode t v e Hok Ee) by lia. reflexivity.
Qed.

Example choice_lookup_init_resp ti tr :
  alt_lookup [(0, ti); (1, tr)] (ident 2 true 0) = Some (0, ti) /\
  alt_lookup [(0, ti); (1, tr)] (ident 2 true 1) = Some (1, tr).
Proof. split; reflexivity. Qed.

(* InitialContextToken: [APPLICATION 0] { thisMech, innerContextToken } *)
Theorem gss_unframe_frame mech inner b :
  gss_frame mech inner = Some b -> zlen b < 2 ^ 32 -> gss_unframe b = Some (mech, inner).
Proof.
  intros HF Hlen. unfold gss_frame in HF. destruct (enc_oid mech) as [o|] eqn:Eo; [|discriminate].
  injection HF as Hb. subst b.
  change (6 :: (der_len (zlen o) ++ o) ++ inner) with (tlv 6 o ++ inner) in *.
  pose proof (zlen_tlv (ident 1 true 0) (tlv 6 o ++ inner)) as Hz.
  pose proof (zlen_tlv 6 o) as Hz6. pose proof (zlen_app (tlv 6 o) inner) as Ha. pose proof (zlen_nonneg inner).
  unfold gss_unframe. rewrite <- (app_nil_r (tlv (ident 1 true 0) _)).
  rewrite parse_tlv_tlv_ident by lia. rewrite Z.eqb_refl.
  rewrite parse_tlv_tlv by (try lia; simpl; lia).
  rewrite (dec_oid_enc_oid mech o Eo). reflexivity.
Qed.

Theorem krb5_split_inner tok msg : length tok = 2%nat -> krb5_split (krb5_inner tok msg) = Some (tok, msg).
Proof. intros H. destruct tok as [| a [| b [| c r]]]; try discriminate. reflexivity. Qed.

(* the two mechanism OIDs and their DER (RFC 4178 / RFC 4121) *)
Example gss_frame_spnego_ex :
  gss_frame [1; 3; 6; 1; 5; 5; 2] [160; 0] = Some [96; 10; 6; 6; 43; 6; 1; 5; 5; 2; 160; 0].
Proof. reflexivity. Qed.
Example gss_frame_krb5_ex :
  gss_frame [1; 2; 840; 113554; 1; 2; 2] (krb5_inner [1; 0] [110; 0]) =
  Some [96; 15; 6; 9; 42; 134; 72; 134; 247; 18; 1; 2; 2; 1; 0; 110; 0].
Proof. reflexivity. Qed.
