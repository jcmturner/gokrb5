(* An authenticator is accepted at most once while it remains acceptable; no false positives. *)
From Gokrb5.lib Require Import Bytes JV.
From Gokrb5.model Require Import Replay.

Lemma names_eqb_eq a b : names_eqb a b = true <-> a = b.
Proof.
  revert b; induction a as [|x a IH]; intros [|y b]; cbn; try (split; congruence).
  rewrite andb_true_iff, beq_bytes_eq, IH. split; [intros [-> ->]; reflexivity|intros H; inversion H; auto].
Qed.

Lemma auth_eqb_eq a b : auth_eqb a b = true <-> a = b.
Proof.
  unfold auth_eqb. rewrite !andb_true_iff, beq_bytes_eq, Z.eqb_eq, names_eqb_eq.
  destruct a, b; cbn. split; [intros [[-> ->] ->]; reflexivity|intros H; inversion H; auto].
Qed.

Lemma existsb_auth a c : existsb (auth_eqb a) c = true <-> In a c.
Proof. exact (existsb_eqb_In auth_eqb auth_eqb_eq a c). Qed.

Definition nonneg_advance (o : op) : Prop := match o with Advance dt => 0 <= dt | _ => True end.

Definition nonneg_advances (ops : list op) : Prop :=
  Forall (fun o => match o with Advance dt => 0 <= dt | _ => True end) ops.

(* the three outcomes of IsReplay behind the skew check of APReq.Verify *)
Inductive present_spec (d : Z) (s : state) (a : auth) : state * verdict -> Prop :=
| PS_skew : d < Z.abs (now s - a_ct a) -> present_spec d s a (s, VSkew)
| PS_replay : Z.abs (now s - a_ct a) <= d -> In a (cache s) -> present_spec d s a (s, VReplay)
| PS_accept : Z.abs (now s - a_ct a) <= d -> ~ In a (cache s) ->
    present_spec d s a (mkState (now s) (a :: cache s), VAccept).

Lemma step_present d s a : present_spec d s a (step d s (Present a)).
Proof.
  cbn [step]. unfold acceptable. destruct (Z.ltb_spec d (Z.abs (now s - a_ct a))) as [L|L]; cbn [negb].
  - apply PS_skew, L.
  - destruct (existsb (auth_eqb a) (cache s)) eqn:Ex.
    + apply PS_replay; [exact L|apply existsb_auth, Ex].
    + apply PS_accept; [exact L|]. intros Hin. apply existsb_auth in Hin. congruence.
Qed.

Lemma run_cons d s o r :
  run d s (o :: r) = (fst (run d (fst (step d s o)) r), snd (step d s o) :: snd (run d (fst (step d s o)) r)).
Proof. cbn [run]. destruct (step d s o) as [s1 v]. cbn [fst snd]. destruct (run d s1 r). reflexivity. Qed.

Lemma run_inv (P : state -> Prop) d :
  (forall s o, P s -> nonneg_advance o -> P (fst (step d s o))) ->
  forall ops s, P s -> nonneg_advances ops -> P (fst (run d s ops)).
Proof.
  intros Hstep. induction ops as [|o r IH]; intros s Hs H; [exact Hs|].
  inversion H as [|? ? Ho Hr]; subst. rewrite run_cons. cbn [fst]. apply IH; [apply Hstep; assumption|exact Hr].
Qed.

(* The invariant behind the property: the authenticator is remembered, or is already too old for the skew check
   (and stays so: the clock is monotone).  Clean-up drops an entry only when the second alternative has taken over. *)
Definition guarded (d : Z) (a : auth) (s : state) : Prop := In a (cache s) \/ d < now s - a_ct a.

Lemma guarded_step d a s o : guarded d a s -> nonneg_advance o -> guarded d a (fst (step d s o)).
Proof.
  unfold guarded. intros G Ho. destruct o as [b| |dt].
  - destruct (step_present d s b) as [L|L Hc|L Hn]; cbn [fst]; try exact G.
    destruct G as [G|G]; [left; right; exact G|right; exact G].
  - cbn. destruct G as [G|G]; [|right; exact G].
    destruct (Z.ltb_spec d (now s - a_ct a)) as [L|L]; [right; exact L|].
    left. apply filter_In. split; [exact G|]. destruct (Z.ltb_spec d (now s - a_ct a)); [lia|reflexivity].
  - cbn in *. destruct G as [G|G]; [left; exact G|right; lia].
Qed.

Lemma guarded_not_accepted d a s : guarded d a s -> snd (step d s (Present a)) <> VAccept.
Proof.
  intros G. destruct (step_present d s a) as [L|L Hin|L Hn]; cbn [snd]; try discriminate.
  destruct G as [G|G]; [contradiction|lia].
Qed.

Lemma accept_guards d s a s1 : step d s (Present a) = (s1, VAccept) -> guarded d a s1.
Proof. destruct (step_present d s a) as [L|L Hc|L Hn]; intros E; inversion E. left. left. reflexivity. Qed.

(* Once accepted, every later presentation is a replay while the timestamp still passes the skew
   check, whatever is presented, cleared or how far the clock advances in between. *)
Theorem replay_at_most_once d s1 a s2 ops s3 vs s4 v :
  step d s1 (Present a) = (s2, VAccept) ->
  nonneg_advances ops -> run d s2 ops = (s3, vs) ->
  step d s3 (Present a) = (s4, v) ->
  v = VReplay \/ (v = VSkew /\ d < Z.abs (now s3 - a_ct a)).
Proof.
  intros E1 Hops E2 E3.
  pose proof (run_inv (guarded d a) d (guarded_step d a) ops s2 (accept_guards _ _ _ _ E1) Hops) as G.
  rewrite E2 in G. cbn [fst] in G. apply guarded_not_accepted in G. rewrite E3 in G. cbn [snd] in G.
  destruct (step_present d s3 a) as [L|L Hin|L Hn]; injection E3 as _ <-.
  - right. split; [reflexivity|exact L].
  - left. reflexivity.
  - congruence.
Qed.

(* No false positive: a replay verdict means the very same (client, client time, service) was accepted before. *)
Fixpoint accepted (d : Z) (s : state) (ops : list op) : list auth :=
  match ops with
  | [] => []
  | o :: r => let '(s1, v) := step d s o in
              match o, v with
              | Present a, VAccept => a :: accepted d s1 r
              | _, _ => accepted d s1 r
              end
  end.

Lemma accepted_cons d s o r :
  accepted d s (o :: r) =
    match o, snd (step d s o) with
    | Present a, VAccept => a :: accepted d (fst (step d s o)) r
    | _, _ => accepted d (fst (step d s o)) r
    end.
Proof. cbn [accepted]. destruct o; destruct (step d s _); reflexivity. Qed.

Lemma step_cache_sub d s o e :
  In e (cache (fst (step d s o))) -> In e (cache s) \/ (exists a, o = Present a /\ e = a /\ snd (step d s o) = VAccept).
Proof.
  destruct o as [a| |dt].
  - destruct (step_present d s a) as [L|L Hc|L Hn]; cbn [fst snd cache]; auto. intros [<-|Hin]; [right; eauto|auto].
  - cbn. intros H. apply filter_In in H. left; apply H.
  - cbn. auto.
Qed.

Lemma run_cache_from_accepted d ops : forall s e,
  In e (cache (fst (run d s ops))) -> In e (cache s) \/ In e (accepted d s ops).
Proof.
  induction ops as [|o r IH]; intros s e H; [left; exact H|].
  rewrite run_cons in H. cbn [fst] in H. rewrite accepted_cons. destruct (IH _ _ H) as [H1|H1].
  - destruct (step_cache_sub d s o e H1) as [H0|(a & -> & -> & ->)]; [left; exact H0|right; left; reflexivity].
  - right. destruct o as [a| |dt]; try exact H1. destruct (snd (step d s (Present a))); try exact H1. right; exact H1.
Qed.

Theorem replay_no_false_positive d ops s vs a s' :
  run d init ops = (s, vs) -> step d s (Present a) = (s', VReplay) -> In a (accepted d init ops).
Proof.
  intros E1 E2. pose proof (run_cache_from_accepted d ops init a) as R. rewrite E1 in R.
  destruct (step_present d s a) as [L|L Hin|L Hn]; inversion E2. destruct (R Hin) as [[]|H]; exact H.
Qed.

(* authenticators differing in client name, client time or service are independent *)
Corollary distinct_keys_independent d s a b :
  a <> b -> In a (cache s) <-> In a (cache (fst (step d s (Present b)))).
Proof.
  intros Hne. destruct (step_present d s b) as [L|L Hc|L Hn]; cbn [fst cache In]; try tauto.
  split; [auto|intros [E|H]; [congruence|exact H]].
Qed.

Lemma guarded_never_accepted d a ops : forall s,
  guarded d a s -> nonneg_advances ops -> ~ In a (accepted d s ops).
Proof.
  induction ops as [|o r IH]; intros s G H; [intros []|].
  inversion H as [|? ? Ho Hr]; subst. rewrite accepted_cons.
  pose proof (IH _ (guarded_step d a s o G Ho) Hr) as IH'.
  destruct o as [b| |dt]; try exact IH'. destruct (snd (step d s (Present b))) eqn:V; try exact IH'.
  intros [->|Hin]; [|exact (IH' Hin)]. exact (guarded_not_accepted d a s G V).
Qed.

(* Whole-history form of the property: over any history of presentations, clean-ups and (non-negative) clock
   advances, from any cache state, no authenticator is accepted twice - not only "a second presentation is rejected
   while it is fresh" but also "once it has aged out and been cleaned up it can never pass the skew check again",
   which is what makes dropping old entries safe. *)
Theorem accepted_NoDup d ops : forall s, nonneg_advances ops -> NoDup (accepted d s ops).
Proof.
  induction ops as [|o r IH]; intros s H; [constructor|].
  inversion H as [|? ? Ho Hr]; subst. rewrite accepted_cons.
  destruct o as [b| |dt]; try (apply IH, Hr). destruct (step d s (Present b)) as [s1 v] eqn:E.
  destruct v; try (apply IH, Hr). constructor; [|apply IH, Hr].
  apply guarded_never_accepted; [exact (accept_guards _ _ _ _ E)|exact Hr].
Qed.

Fixpoint count_accept (vs : list verdict) : nat :=
  match vs with [] => O | VAccept :: r => S (count_accept r) | _ :: r => count_accept r end.

Lemma accepted_length d ops : forall s, length (accepted d s ops) = count_accept (snd (run d s ops)).
Proof.
  induction ops as [|o r IH]; intros s; [reflexivity|].
  rewrite accepted_cons, run_cons. cbn [snd count_accept]. destruct o as [b| |dt].
  - destruct (snd (step d s (Present b))); cbn [length]; rewrite IH; reflexivity.
  - apply IH.
  - apply IH.
Qed.

Lemma accepted_presented d ops : forall s x, In x (accepted d s ops) -> In (Present x) ops.
Proof.
  induction ops as [|o r IH]; intros s x; [intros []|]. rewrite accepted_cons.
  assert (In x (accepted d (fst (step d s o)) r) -> In (Present x) (o :: r)) as Tail by (intros H; right; exact (IH _ _ H)).
  destruct o as [b| |dt]; try exact Tail. destruct (snd (step d s (Present b))); try exact Tail.
  intros [->|H]; [left; reflexivity|exact (Tail H)].
Qed.

(* n presentations of one authenticator in any order (the lock makes each atomic): at most one accept *)
Theorem concurrent_same_authenticator_once d a n s :
  (count_accept (snd (run d s (repeat (Present a) n))) <= 1)%nat.
Proof.
  rewrite <- accepted_length.
  assert (nonneg_advances (repeat (Present a) n)) as H
    by (apply Forall_forall; intros o Ho; apply repeat_spec in Ho; subst o; exact I).
  pose proof (accepted_NoDup d _ s H) as N.
  assert (forall x, In x (accepted d s (repeat (Present a) n)) -> x = a) as A.
  { intros x Hx. apply accepted_presented, repeat_spec in Hx. congruence. }
  (* a duplicate-free list whose elements all equal a has at most one *)
  destruct (accepted d s (repeat (Present a) n)) as [|x [|y l]]; cbn [length]; try lia.
  inversion N as [|? ? Hn _]; subst. destruct Hn. rewrite (A x), (A y); cbn; auto.
Qed.

Theorem remembered_never_accepted d s a ops :
  In a (cache s) -> nonneg_advances ops -> ~ In a (accepted d s ops).
Proof. intros Hin. apply guarded_never_accepted. left; exact Hin. Qed.

(* clean-up is invisible to the verdict on an authenticator that still passes the skew check *)
Lemma clear_preserves_fresh d s a :
  acceptable d (now s) a = true ->
  snd (step d (fst (step d s Clear)) (Present a)) = snd (step d s (Present a)).
Proof.
  intros Ha. unfold acceptable in Ha. apply negb_true_iff, Z.ltb_ge in Ha.
  assert (In a (cache (fst (step d s Clear))) <-> In a (cache s)) as Same.
  { cbn. rewrite filter_In. split; [tauto|]. intros Hin. split; [exact Hin|].
    destruct (Z.ltb_spec d (now s - a_ct a)); [lia|reflexivity]. }
  destruct (step_present d s a) as [L|L Hin|L Hn];
    destruct (step_present d (fst (step d s Clear)) a) as [L'|L' Hin'|L' Hn']; cbn in L'; try reflexivity; try lia.
  - destruct Hn'. apply Same, Hin.
  - destruct Hn. apply Same, Hin'.
Qed.

(* non-vacuity: accept, then replay late in the window after a clean-up, then skew *)
Example replay_example :
  let a := mkAuth [97] 250 [[72]; [104]] in
  snd (run 300 init [Present a; Advance 400; Clear; Present a; Advance 200; Present a])
  = [VAccept; VNone; VNone; VReplay; VNone; VSkew].
Proof. reflexivity. Qed.
