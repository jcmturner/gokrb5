(* Two complements to render_noninterference (DiagProofs.v):
   - the checker is TIGHT: whenever `no_secret_visible` rejects a type there are two states differing only in
     a secret whose encodings differ, so a failed generated obligation (conform/ConfDiag.v) always has a leak
     witness and the checker never demands more than the property;
   - a direct "never appears" reading: every token an accepted encoding emits is a public token of the state. *)
From Gokrb5.lib Require Import Bytes JV.
From Gokrb5.model Require Import Diag.
From Gokrb5.proofs Require Import DiagProofs.

(* a canonical inhabitant: publics 0, every secret s, one element per sequence *)
Fixpoint inhabit (s : Z) (t : jty) {struct t} : jval :=
  match t with
  | JPublic => VP 0
  | JSecret => VS s
  | JStruct fs =>
    VStruct ((fix go (fs : list (bool * jty)) : list jval :=
                match fs with
                | [] => []
                | f :: r => inhabit s (snd f) :: go r
                end) fs)
  | JSeq e => VSeq [inhabit s e]
  end.

Lemma inhabit_same_public : forall t s1 s2, same_public t (inhabit s1 t) (inhabit s2 t).
Proof.
  induction t as [| | |vis ft fr IHf IHr|e IH] using jty_field_ind; intros s1 s2; cbn [inhabit same_public snd].
  - reflexivity.
  - exact I.
  - exact I.
  - split; [destruct vis; [apply IHf|exact I]|exact (IHr s1 s2)].
  - split; [apply IH|exact I].
Qed.

Lemma inhabit_zero_renders_zero : forall t x, In x (render t (inhabit 0 t)) -> x = 0.
Proof.
  induction t as [| | |vis ft fr IHf IHr|e IH] using jty_field_ind; intros x; cbn [inhabit render snd].
  - intros [H|[]]; auto.
  - intros [H|[]]; auto.
  - intros [].
  - intros H. apply in_app_or in H. destruct H as [H|H]; [|exact (IHr x H)].
    destruct vis; [apply IHf; exact H|destruct H].
  - cbn [flat_map]. rewrite app_nil_r. apply IH.
Qed.

Lemma inhabit_leaks : forall t s, no_secret_visible t = false -> In s (render t (inhabit s t)).
Proof.
  induction t as [| | |vis ft fr IHf IHr|e IH] using jty_field_ind; intros s; cbn [inhabit render no_secret_visible snd].
  - discriminate.
  - intros _. left; reflexivity.
  - discriminate.
  - intros H. apply andb_false_iff in H. apply in_or_app. destruct H as [H|H]; [left|right; exact (IHr s H)].
    destruct vis; [apply IHf; exact H|discriminate].
  - intros H. cbn [flat_map]. rewrite app_nil_r. apply IH; exact H.
Qed.

Theorem checker_tight : forall t,
  no_secret_visible t = false ->
  exists a b, same_public t a b /\ render t a <> render t b.
Proof.
  intros t H. exists (inhabit 1 t), (inhabit 0 t). split; [apply inhabit_same_public|].
  intros E. pose proof (inhabit_leaks t 1 H) as L. rewrite E in L.
  apply inhabit_zero_renders_zero in L. discriminate.
Qed.

(* hence the checker decides the property of the type exactly *)
Theorem checker_exact : forall t,
  no_secret_visible t = true <-> (forall a b, same_public t a b -> render t a = render t b).
Proof.
  intros t. split.
  - intros H a b. apply render_noninterference; exact H.
  - intros H. destruct (no_secret_visible t) eqn:E; [reflexivity|].
    destruct (checker_tight t E) as (a & b & Hs & Hn). elim Hn. apply H; exact Hs.
Qed.

(* every public token of a value, wherever it sits *)
Fixpoint pub_tokens (v : jval) : list Z :=
  match v with
  | VP x => [x]
  | VS _ => []
  | VStruct fs => flat_map pub_tokens fs
  | VSeq l => flat_map pub_tokens l
  end.

Theorem render_only_public : forall t v x,
  no_secret_visible t = true -> In x (render t v) -> In x (pub_tokens v).
Proof.
  induction t as [| | |vis ft fr IHf IHr|e IH] using jty_field_ind; intros v x Hc; cbn [no_secret_visible] in Hc.
  - destruct v; cbn [render pub_tokens]; auto; intros [].
  - discriminate.
  - destruct v as [| |[|y vr]|]; intros [].
  - destruct v as [| |[|y vr]|]; cbn [render pub_tokens flat_map]; try (intros []).
    apply andb_true_iff in Hc. destruct Hc as [Hc1 Hc2].
    intros H. apply in_app_or in H. apply in_or_app. destruct H as [H|H]; [left|right; exact (IHr (VStruct vr) x Hc2 H)].
    destruct vis; [apply IHf; assumption|destruct H].
  - destruct v as [| | |l]; cbn [render pub_tokens]; try (intros []).
    induction l as [|y l IHl]; cbn [flat_map]; [intros []|].
    intros H. apply in_app_or in H. apply in_or_app. destruct H as [H|H]; [left; apply IH; assumption|right; apply IHl; exact H].
Qed.

(* a secret whose token is not also a public token of the state never shows in an accepted encoding *)
Corollary fresh_secret_never_rendered : forall t v s,
  no_secret_visible t = true -> ~ In s (pub_tokens v) -> ~ In s (render t v).
Proof. intros t v s Hc Hn Hin. apply Hn. eapply render_only_public; eassumption. Qed.
