(* Keytab.kt_unmarshal reads every file of the MIT keytab grammar to exactly the entries written,
   for both versions, with holes and with or without the 32-bit kvno; round trip as a corollary. *)
From Gokrb5.lib Require Import Bytes JV.
From Gokrb5.model Require Import Keytab.
From Gokrb5.proofs Require Import BinReader.

(* the file grammar, written from the format document *)

Record wentry := mkW {
  w_realm : bytes; w_comps : list bytes; w_ntype : Z;
  w_ts : Z; w_kvno8 : Z; w_ktype : Z; w_key : bytes;
  w_tail : option Z          (* the optional trailing 32-bit kvno *)
}.
Inductive item := IEntry (e : wentry) | IHole (pad : bytes).

Definition cstr (le : bool) (s : bytes) : bytes := put 2 le (zlen s) ++ s.

Definition w_body (v : Z) (e : wentry) : bytes :=
  let le := (v =? 1) in
  put 2 le (if v =? 1 then zlen (w_comps e) + 1 else zlen (w_comps e))
  ++ cstr le (w_realm e)
  ++ concat (map (cstr le) (w_comps e))
  ++ (if v =? 1 then [] else put 4 le (w_ntype e))
  ++ put 4 le (w_ts e) ++ put 1 le (w_kvno8 e) ++ put 2 le (w_ktype e)
  ++ put 2 le (zlen (w_key e)) ++ w_key e
  ++ match w_tail e with Some k => put 4 le k | None => [] end.

Definition render_item (v : Z) (it : item) : bytes :=
  match it with
  | IEntry e => put 4 (v =? 1) (zlen (w_body v e)) ++ w_body v e
  | IHole pad => put 4 (v =? 1) (- zlen pad) ++ pad
  end.

Definition render_items (v : Z) (items : list item) : bytes := concat (map (render_item v) items).
Definition render (v : Z) (items : list item) : bytes := [5; v] ++ render_items v items.

(* what a reader is supposed to obtain *)
Definition entry_of (v : Z) (e : wentry) : entry :=
  mkEntry (mkPrincipal (zlen (w_comps e)) (w_realm e) (w_comps e) (if v =? 1 then 0 else w_ntype e))
          (w_ts e) (w_kvno8 e) (w_ktype e) (w_key e)
          (match w_tail e with
           | Some k => if k =? 0 then w_kvno8 e else k
           | None => w_kvno8 e end).

Fixpoint entries_of (v : Z) (items : list item) : list entry :=
  match items with
  | [] => []
  | IEntry e :: r => entry_of v e :: entries_of v r
  | IHole _ :: r => entries_of v r
  end.

(* the component count written in version 1 includes the realm, hence the + 1 *)
Definition wf_wentry (v : Z) (e : wentry) : Prop :=
  zlen (w_realm e) < 2 ^ 15 /\ Forall (fun c => zlen c < 2 ^ 15) (w_comps e) /\
  zlen (w_comps e) + 1 < 2 ^ 15 /\
  - 2 ^ 31 <= w_ntype e < 2 ^ 31 /\ - 2 ^ 31 <= w_ts e < 2 ^ 31 /\
  0 <= w_kvno8 e < 2 ^ 8 /\ - 2 ^ 15 <= w_ktype e < 2 ^ 15 /\ zlen (w_key e) < 2 ^ 15 /\
  match w_tail e with Some k => 0 <= k < 2 ^ 32 | None => True end /\
  zlen (w_body v e) < 2 ^ 31.

Definition wf_item (v : Z) (it : item) : Prop :=
  match it with
  | IEntry e => wf_wentry v e
  | IHole pad => 1 <= zlen pad < 2 ^ 31
  end.

Lemma read_cstr le s rest : zlen s < 2 ^ 15 -> read_int 2 le (cstr le s ++ rest) = Ok (zlen s, s ++ rest).
Proof.
  intros Hs. unfold cstr. rewrite <- app_assoc. apply read_int2. pose proof (zlen_nonneg s). lia.
Qed.

Lemma parse_comps_render le comps : forall rest acc,
  Forall (fun c => zlen c < 2 ^ 15) comps ->
  parse_comps (length comps) le (concat (map (cstr le) comps) ++ rest) acc = (acc ++ comps, rest, true).
Proof.
  induction comps as [|c comps IH]; intros rest acc Hwf; cbn [length map concat parse_comps].
  - now rewrite app_nil_r.
  - inversion Hwf as [|? ? Hc Hcs]; subst.
    rewrite <- app_assoc, read_cstr, read_bytes_app, IH by assumption. now rewrite <- app_assoc.
Qed.

(* only the principal part of an entry depends on the version *)
Definition w_princ (v : Z) (e : wentry) : bytes :=
  let le := (v =? 1) in
  put 2 le (if v =? 1 then zlen (w_comps e) + 1 else zlen (w_comps e))
  ++ cstr le (w_realm e) ++ concat (map (cstr le) (w_comps e))
  ++ (if v =? 1 then [] else put 4 le (w_ntype e)).

Definition w_fields (le : bool) (e : wentry) : bytes :=
  put 4 le (w_ts e) ++ put 1 le (w_kvno8 e) ++ put 2 le (w_ktype e)
  ++ put 2 le (zlen (w_key e)) ++ w_key e
  ++ match w_tail e with Some k => put 4 le k | None => [] end.

Lemma w_body_split v e : w_body v e = w_princ v e ++ w_fields (v =? 1) e.
Proof. unfold w_body, w_princ, w_fields. cbv zeta. now rewrite <- !app_assoc. Qed.

Lemma w_body_pos v e : 0 < zlen (w_body v e).
Proof. unfold w_body. cbv zeta. rewrite zlen_app, put_zlen. apply Z.add_pos_nonneg; [lia|apply zlen_nonneg]. Qed.

Lemma parse_principal_render v e rest : wf_wentry v e ->
  parse_principal v (v =? 1) (w_princ v e ++ rest) =
  (mkPrincipal (zlen (w_comps e)) (w_realm e) (w_comps e) (if v =? 1 then 0 else w_ntype e), rest).
Proof.
  intros (Hr & Hcs & Hnc & Hnt & _). pose proof (zlen_nonneg (w_comps e)).
  unfold parse_principal, w_princ. cbv zeta. rewrite <- !app_assoc.
  rewrite read_int2 by (destruct (v =? 1); lia).
  replace (if v =? 1 then sint 16 (_ - 1) else _) with (zlen (w_comps e))
    by (destruct (v =? 1); [rewrite sint_small; lia|reflexivity]).
  rewrite read_cstr, read_bytes_app by assumption.
  rewrite Z2Nat_zlen, parse_comps_render by assumption. cbn [app].
  destruct (v =? 1); [now rewrite app_nil_l|now rewrite read_int4].
Qed.

Lemma parse_entry_body v e : wf_wentry v e -> parse_entry v (v =? 1) (w_body v e) = Ok (entry_of v e).
Proof.
  intros Hwf. pose proof Hwf as (_ & _ & _ & _ & Hts & Hk8 & Hkt & Hkl & Htail & _).
  pose proof (zlen_nonneg (w_key e)).
  rewrite w_body_split. unfold parse_entry. rewrite parse_principal_render by assumption.
  unfold w_fields. cbv beta iota.
  rewrite read_int4 by assumption. cbn [bind].
  rewrite read_int_put_eq. cbn [bind].
  rewrite read_int2 by assumption. cbn [bind].
  rewrite read_int2 by lia. cbn [bind].
  rewrite read_bytes_app. cbn [bind].
  change (8 * Z.of_nat 1) with 8. rewrite wrap_sint_mod by lia.
  unfold entry_of. destruct (w_tail e) as [k|].
  - rewrite put_length. cbn [Nat.leb].
    rewrite <- (app_nil_r (put 4 (v =? 1) k)), read_int_put_eq. cbn [bind].
    change (8 * Z.of_nat 4) with 32. rewrite wrap_sint_mod by lia. reflexivity.
  - reflexivity.
Qed.

Lemma kt_next_put f v le l r acc : - 2 ^ 31 <= l < 2 ^ 31 ->
  kt_next f v le (put 4 le l ++ r) acc = kt_loop f v le l r acc.
Proof.
  intros Hl. unfold kt_next. rewrite app_length, put_length.
  destruct (Nat.ltb_spec (4 + length r) 4); [lia|]. now rewrite read_int4.
Qed.

Lemma kt_loop_entry f v le eb r acc e : 0 < zlen eb -> parse_entry v le eb = Ok e ->
  kt_loop (S f) v le (zlen eb) (eb ++ r) acc = kt_next f v le r (acc ++ [e]).
Proof.
  intros Hp He. pose proof (zlen_nonneg r). rewrite kt_loop_unfold.
  destruct (Z.eqb_spec (zlen eb) 0); [lia|]. destruct (Z.ltb_spec (zlen eb) 0); [lia|].
  rewrite zlen_app. destruct (Z.ltb_spec (zlen eb + zlen r) (zlen eb)); [lia|].
  now rewrite firstn_zlen_app, skipn_zlen_app, He.
Qed.

Lemma kt_loop_hole f v le pad r acc : 1 <= zlen pad < 2 ^ 31 ->
  kt_loop (S f) v le (- zlen pad) (pad ++ r) acc = kt_next f v le r acc.
Proof.
  intros Hp. pose proof (zlen_nonneg r). rewrite kt_loop_unfold.
  destruct (Z.eqb_spec (- zlen pad) 0); [lia|]. destruct (Z.ltb_spec (- zlen pad) 0); [|lia].
  cbv zeta. rewrite Z.opp_involutive, sint_small by lia.
  destruct (Z.ltb_spec (zlen pad) 0); [lia|].
  rewrite zlen_app. destruct (Z.ltb_spec (zlen pad + zlen r) (zlen pad)); [lia|].
  now rewrite skipn_zlen_app.
Qed.

Lemma kt_next_items v : forall items f acc,
  Forall (wf_item v) items -> (length items <= f)%nat ->
  kt_next f v (v =? 1) (render_items v items) acc = Ok (acc ++ entries_of v items).
Proof.
  induction items as [|it items IH]; intros f acc Hwf Hf.
  - cbn. now rewrite app_nil_r.
  - inversion Hwf as [|? ? Hit Hits]; subst. destruct f as [|f]; [cbn in Hf; lia|]. cbn in Hf.
    change (render_items v (it :: items)) with (render_item v it ++ render_items v items).
    destruct it as [e|pad]; cbn [render_item wf_item entries_of] in *; rewrite <- app_assoc.
    + pose proof (w_body_pos v e). assert (zlen (w_body v e) < 2 ^ 31) by apply Hit.
      rewrite kt_next_put by lia.
      rewrite (kt_loop_entry _ _ _ _ _ _ (entry_of v e)) by (try apply parse_entry_body; assumption).
      rewrite IH by (try assumption; lia). now rewrite <- app_assoc.
    + rewrite kt_next_put, kt_loop_hole by lia. apply IH; [assumption|lia].
Qed.

Lemma render_items_length v items : (4 * length items <= length (render_items v items))%nat.
Proof.
  apply concat_length_ge. intros it. destruct it; cbn [render_item]; rewrite app_length, put_length; lia.
Qed.

(* Unmarshal reads the first length word itself and then runs the loop *)
Lemma kt_unmarshal_next v r : v = 1 \/ v = 2 -> (4 <= length r)%nat ->
  kt_unmarshal (5 :: v :: r) = (do es <- kt_next (S (length r - 4)) v (v =? 1) r []; Ok (v, es)).
Proof.
  intros Hv H4. unfold kt_unmarshal, kt_next.
  assert (Ev : negb ((v =? 1) || (v =? 2)) = false) by (destruct Hv as [->| ->]; reflexivity).
  cbn [Z.eqb Pos.eqb negb]. rewrite Ev.
  destruct (Nat.eqb_spec (length r) 0); [lia|]. destruct (Nat.ltb_spec (length r) 4); [lia|].
  destruct (read_int 4 (v =? 1) r) as [[l r']|c|s] eqn:E; try reflexivity.
  rewrite (read_int_rest _ _ _ _ _ E). destruct (kt_loop _ _ _ _ _ _); reflexivity.
Qed.

Theorem kt_parse_grammar v items :
  v = 1 \/ v = 2 -> Forall (wf_item v) items ->
  kt_unmarshal (render v items) = Ok (v, entries_of v items).
Proof.
  intros Hv Hwf. unfold render. cbn [app].
  pose proof (render_items_length v items) as Hlen.
  destruct (Nat.eq_dec (length items) 0) as [E|E].
  - apply length_zero_iff_nil in E. subst items. unfold kt_unmarshal. destruct Hv as [->| ->]; reflexivity.
  - rewrite kt_unmarshal_next, kt_next_items by (try assumption; lia). reflexivity.
Qed.

Definition w_of_entry (e : entry) : wentry :=
  mkW (p_realm (e_princ e)) (p_comps (e_princ e)) (p_ntype (e_princ e))
      (e_ts e) (e_kvno8 e) (e_ktype e) (e_key e) (Some (e_kvno e)).

(* entries Marshal can represent faithfully: NumComponents is the number of components and all
   fields are inside the ranges of their file representation *)
Definition wf_entry (v : Z) (e : entry) : Prop :=
  p_ncomp (e_princ e) = zlen (p_comps (e_princ e)) /\ wf_wentry v (w_of_entry e).

Lemma entry_marshal_render v e :
  wf_entry v e -> entry_marshal v e = render_item v (IEntry (w_of_entry e)).
Proof.
  intros (Hn & _). unfold entry_marshal, render_item.
  assert (entry_body v e = w_body v (w_of_entry e)) as ->; [|reflexivity].
  unfold entry_body, w_body, princ_marshal, w_of_entry, marshal_string, cstr. cbn [w_realm w_comps w_ntype w_ts w_kvno8 w_ktype w_key w_tail].
  rewrite Hn, (put_wrap8 (v =? 1)).
  rewrite <- !app_assoc. reflexivity.
Qed.

Lemma kt_marshal_render v es :
  Forall (wf_entry v) es -> kt_marshal v es = render v (map (fun e => IEntry (w_of_entry e)) es).
Proof.
  intros H. unfold kt_marshal, render, render_items. f_equal. f_equal.
  rewrite map_map. induction H as [|e es He Hes IH]; cbn [map]; [reflexivity|].
  now rewrite IH, entry_marshal_render.
Qed.

(* the normal form Unmarshal produces: kvno 0 is replaced by the 8-bit kvno, version 1 has no name type *)
Definition norm_entry (v : Z) (e : entry) : entry :=
  mkEntry (mkPrincipal (zlen (p_comps (e_princ e))) (p_realm (e_princ e)) (p_comps (e_princ e))
                       (if v =? 1 then 0 else p_ntype (e_princ e)))
          (e_ts e) (e_kvno8 e) (e_ktype e) (e_key e)
          (if e_kvno e =? 0 then e_kvno8 e else e_kvno e).

Lemma entries_of_marshalled v es :
  entries_of v (map (fun e => IEntry (w_of_entry e)) es) = map (norm_entry v) es.
Proof. induction es as [|e es IH]; cbn [map entries_of]; [reflexivity|]. now rewrite IH. Qed.

Theorem kt_roundtrip v es :
  v = 1 \/ v = 2 -> Forall (wf_entry v) es ->
  kt_unmarshal (kt_marshal v es) = Ok (v, map (norm_entry v) es).
Proof.
  intros Hv Hwf. rewrite kt_marshal_render, kt_parse_grammar, entries_of_marshalled; try assumption; [reflexivity|].
  rewrite Forall_map. eapply Forall_impl; [|exact Hwf]. intros e (_ & H). exact H.
Qed.

(* entries in normal form are fixed points *)
Definition canonical (v : Z) (e : entry) : Prop :=
  p_ncomp (e_princ e) = zlen (p_comps (e_princ e)) /\
  (v = 1 -> p_ntype (e_princ e) = 0) /\ (e_kvno e = 0 -> e_kvno8 e = 0).

Lemma norm_canonical v e : v = 1 \/ v = 2 -> canonical v e -> norm_entry v e = e.
Proof.
  intros Hv (Hn & Ht & Hk). destruct e as [[nc realm comps nt] ts k8 kt key kv]; cbn in *.
  unfold norm_entry; cbn. subst nc. f_equal.
  - f_equal. destruct Hv as [->| ->]; cbn; [symmetry; auto|reflexivity].
  - destruct (Z.eqb_spec kv 0) as [->|]; [rewrite Hk; auto|reflexivity].
Qed.

Corollary kt_roundtrip_same v es :
  v = 1 \/ v = 2 -> Forall (wf_entry v) es -> Forall (canonical v) es ->
  kt_unmarshal (kt_marshal v es) = Ok (v, es).
Proof.
  intros Hv Hwf Hc. rewrite kt_roundtrip by assumption. f_equal. f_equal.
  induction Hc as [|e es He Hes IH]; cbn [map]; [reflexivity|].
  inversion Hwf; subst. rewrite IH, norm_canonical by assumption. reflexivity.
Qed.

(* Non-vacuity: a concrete file with a hole, an entry without and one with the 32-bit kvno. *)
Example grammar_example :
  let e1 := mkW [84;69;83;84] [[72;84;84;80];[104]] 1 1500000000 3 18 [1;2;3;4] None in
  let e2 := mkW [84] [] 1 (-5) 0 23 [9] (Some 70000) in
  Forall (wf_item 2) [IEntry e1; IHole [0;0;0]; IEntry e2] /\
  kt_unmarshal (render 2 [IEntry e1; IHole [0;0;0]; IEntry e2]) = Ok (2, [entry_of 2 e1; entry_of 2 e2]) /\
  kt_unmarshal (render 1 [IEntry e1; IHole [0;0;0]; IEntry e2]) = Ok (1, [entry_of 1 e1; entry_of 1 e2]).
Proof.
  split; [|split; vm_compute; reflexivity].
  repeat constructor; cbn; try lia; vm_compute; try reflexivity; intuition congruence.
Qed.
