(* Completeness of the client side of the AS and TGS exchanges, end to end: a reply honestly built by a KDC for the
   request the client sent is accepted, from the wire bytes, through the cipher model.  "Honestly built": the wire is
   the DER encoding of a well-formed KDC-REP value (C13's encoder); its encrypted part is what encrypt_with produces,
   for some confounder of the right length, on the DER encoding of an EncKDCRepPart whose fields answer the request,
   under the client's key (AS, usage 3) or the TGT session key (TGS, usage 8).  des3-cbc-sha1 returns the plaintext
   followed by zero padding; `seals` (and the Go decoder it describes) ignores octets after the value. *)
From Gokrb5.lib Require Import Bytes JV.
From Gokrb5.model Require Import Keytab Crypto PAData Replay APReq KDCRep Schema DER DERCodec RFCSchemas KDCRepBytes.
From Gokrb5.proofs Require Import DERBasic DERProofs CryptoRoundTrip KDCRepProofs KDCRepBytesDec KDCRepBytesProofs
     KDCRepBytesExamples.

(* confounder length of the etype: one cipher block (16 for AES, 8 for des3), 8 for rc4-hmac *)
Definition kconf_len (et : Z) : nat := conf_len et.

(* ct is an encryption of msg under (et, key, usage): with some confounder of the right length *)
Definition ksealed (et : Z) (key : bytes) (usage : Z) (msg ct : bytes) : Prop :=
  exists conf, length conf = kconf_len et /\ wf_bytes conf /\ encrypt_with et key usage conf msg = Ok ct.

(* what the round trips need of the key: octets for AES (the key length is checked by encrypt_with itself),
   16 octets for rc4-hmac (encrypt_with does not check it, decrypt does), nothing for des3 *)
Definition kkey_ok (et : Z) (key : bytes) : Prop :=
  match et_family et with
  | Some FAesSha1 | Some FAesSha2 => wf_bytes key
  | Some FRc4 => length key = 16%nat
  | Some FDes3 | None => True
  end.

(* the zero padding decryption leaves after the message: only des3 (CBC without ciphertext stealing) pads *)
Definition kpad_len (et : Z) (msg : bytes) : nat :=
  match et_family et with
  | Some FDes3 => ((8 - (8 + length msg) mod 8) mod 8)%nat
  | _ => 0%nat
  end.

Lemma ksealed_supported et key usage msg ct : ksealed et key usage msg ct -> et_family et <> None.
Proof.
  intros (conf & _ & _ & E) F. unfold encrypt_with in E. rewrite F in E. discriminate.
Qed.

(* Decryption of a sealed message returns the message followed by kpad_len zero octets (none except for des3).
   "et is supported" need not be assumed: ksealed implies it (ksealed_supported). *)
Theorem ksealed_decrypt et key usage msg ct :
  kkey_ok et key -> wf_bytes msg -> ksealed et key usage msg ct ->
  decrypt et key usage ct = Ok (msg ++ Crypto.zeros (kpad_len et msg)).
Proof.
  intros Hk Wm (conf & Hc & Wc & E). exact (encrypt_with_decrypt et key usage conf msg ct Hc Wc Wm Hk E).
Qed.

(* the same in the shape asked for by `seals`: message, then a pad that is all zeros *)
Corollary ksealed_decrypt_pad et key usage msg ct :
  kkey_ok et key -> wf_bytes msg -> ksealed et key usage msg ct ->
  exists pad n, pad = Crypto.zeros n /\ (et_family et <> Some FDes3 -> n = 0%nat) /\ (n < 8)%nat /\
                decrypt et key usage ct = Ok (msg ++ pad).
Proof.
  intros Hk Wm Hs. exists (Crypto.zeros (kpad_len et msg)), (kpad_len et msg).
  split; [reflexivity|]. split; [|split; [|apply ksealed_decrypt; assumption]].
  - intros Hn. unfold kpad_len. destruct (et_family et) as [[| | |]|]; congruence.
  - unfold kpad_len. destruct (et_family et) as [[| | |]|]; try lia. apply Nat.mod_upper_bound. lia.
Qed.

Lemma schema_ok_enc_part n : n = 25 \/ n = 26 -> schema_ok (TApp n rfc_EncKDCRepPart) = true.
Proof. intros [-> | ->]; vm_compute; reflexivity. Qed.

Lemma enc_part_octets n x er ept :
  n = 25 \/ n = 26 -> wf_enc_inj n x er = true ->
  encode (TApp n rfc_EncKDCRepPart) (inject_enc_rep x er) = Some ept -> wf_bytes ept.
Proof.
  intros Hn Hwf He. destruct (wf_enc_inj_inv _ _ _ Hwf) as (_ & _ & Hs).
  apply (encode_wf_bytes _ _ _ (schema_ok_enc_part n Hn) He).
  apply encode_some in He. destruct He as [_ ->]. lia.
Qed.

(* The conditions on names, realm, nonce, server name, addresses, KDC time and the FAST flag are those of
   as_valid (KDCRepProofs.v), word for word. *)
Theorem honest_asrep_accepted skew c rq v w trailing rp t n x er ept kv kt :
  (* the wire: DER encoding of a well-formed AS-REP value whose cleartext projection is rp *)
  wf_rep_val 11 v = true -> encode rfc_ASRep v = Some w -> project_rep v = Some rp ->
  (* the sealed part: DER encoding of an EncKDCRepPart (APPLICATION 25 or 26) carrying the fields er *)
  (n = 25 \/ n = 26) -> wf_enc_inj n x er = true ->
  encode (TApp n rfc_EncKDCRepPart) (inject_enc_rep x er) = Some ept ->
  (* ... encrypted under the client's key with usage 3 *)
  as_key c rp = Ok (kv, kt) -> kkey_ok kt kv -> ksealed kt kv 3 ept (rp_cipher rp) ->
  (* the reply answers the request *)
  rp_cname rp = rq_cname rq -> rp_crealm rp = rq_realm rq ->
  er_nonce er = rq_nonce rq -> er_sname er = rq_sname rq -> er_srealm er = rq_realm rq ->
  (rq_addrs rq = [] \/ addrs_equal (er_caddr er) (rq_addrs rq) = true) ->
  Z.abs (t - us (er_authtime er)) <= skew ->
  flag_enc_pa_rep (er_flags er) = false ->
  asrep_verify_bytes skew c rq (w ++ trailing) t = Ok true.
Proof.
  intros Hwf He Hp Hn Hwe Hee EK Hk Hs H1 H2 H3 H4 H5 H6 H7 H8.
  pose proof (enc_part_octets n x er ept Hn Hwe Hee) as Wm.
  pose proof (ksealed_decrypt kt kv 3 ept (rp_cipher rp) Hk Wm Hs) as ED.
  rewrite (asrep_bytes_refines_sealed skew c rq v w trailing rp er t Hwf He Hp).
  - apply asrep_accept_iff.
    exists kv, kt, (ept ++ Crypto.zeros (kpad_len kt ept)), er. repeat split; assumption.
  - intros kv' kt' pt EK' ED'. rewrite EK in EK'. injection EK' as <- <-.
    rewrite ED in ED'. injection ED' as <-.
    exists n, x, ept, (Crypto.zeros (kpad_len kt ept)). repeat split; assumption.
Qed.

(* The model (and gokrb5's TGSRep.DecryptEncPart) decrypts with the TGT session key and usage 8 only.
   Conditions as in tgs_valid, word for word. *)
Theorem honest_tgsrep_accepted skew stype skey rq v w trailing rp t n x er ept :
  wf_rep_val 13 v = true -> encode rfc_TGSRep v = Some w -> project_rep v = Some rp ->
  (n = 25 \/ n = 26) -> wf_enc_inj n x er = true ->
  encode (TApp n rfc_EncKDCRepPart) (inject_enc_rep x er) = Some ept ->
  kkey_ok stype skey -> ksealed stype skey 8 ept (rp_cipher rp) ->
  rp_cname rp = rq_cname rq -> rp_tkt_realm rp = rq_realm rq ->
  er_nonce er = rq_nonce rq -> er_srealm er = rq_realm rq ->
  (forall a, In a (er_caddr er) -> In a (rq_addrs rq)) ->
  ((exists s, er_start er = Some s /\ Z.abs (t - us s) <= skew) \/ Z.abs (t - us (er_authtime er)) <= skew) ->
  tgsrep_verify_bytes skew stype skey rq (w ++ trailing) t = Ok true.
Proof.
  intros Hwf He Hp Hn Hwe Hee Hk Hs H1 H2 H3 H5 H6 H7.
  pose proof (enc_part_octets n x er ept Hn Hwe Hee) as Wm.
  pose proof (ksealed_decrypt stype skey 8 ept (rp_cipher rp) Hk Wm Hs) as ED.
  rewrite (tgsrep_bytes_refines_sealed skew stype skey rq v w trailing rp er t Hwf He Hp).
  - apply tgsrep_accept_iff.
    exists (ept ++ Crypto.zeros (kpad_len stype ept)), er. repeat split; assumption.
  - intros pt ED'. rewrite ED in ED'. injection ED' as <-.
    exists n, x, ept, (Crypto.zeros (kpad_len stype ept)). repeat split; assumption.
Qed.

(* ksealed / kkey_ok / ksealed_decrypt on small concrete messages: aes128 (17), rc4-hmac (23) and des3 (16,
   where the pad shows) *)
Example ksealed_17 :
  exists ct, kkey_ok 17 (repeatz 7 16) /\ ksealed 17 (repeatz 7 16) 3 [104; 105] ct /\
             decrypt 17 (repeatz 7 16) 3 ct = Ok [104; 105].
Proof.
  assert (E : exists ct, encrypt_with 17 (repeatz 7 16) 3 (repeatz 1 16) [104; 105] = Ok ct)
    by (vm_compute; eexists; reflexivity).
  destruct E as [ct E]. exists ct.
  assert (K : kkey_ok 17 (repeatz 7 16)) by (apply wf_bytesb_iff; reflexivity).
  assert (M : wf_bytes [104; 105]) by (apply wf_bytesb_iff; reflexivity).
  assert (S : ksealed 17 (repeatz 7 16) 3 [104; 105] ct).
  { exists (repeatz 1 16). split; [reflexivity|]. split; [apply wf_bytesb_iff; reflexivity | exact E]. }
  split; [exact K|]. split; [exact S|]. exact (ksealed_decrypt 17 _ 3 _ ct K M S).
Qed.

Example ksealed_23 :
  exists ct, kkey_ok 23 (repeatz 7 16) /\ ksealed 23 (repeatz 7 16) 8 [104; 105] ct /\
             decrypt 23 (repeatz 7 16) 8 ct = Ok [104; 105].
Proof.
  assert (E : exists ct, encrypt_with 23 (repeatz 7 16) 8 (repeatz 1 8) [104; 105] = Ok ct)
    by (vm_compute; eexists; reflexivity).
  destruct E as [ct E]. exists ct.
  assert (K : kkey_ok 23 (repeatz 7 16)) by reflexivity.
  assert (M : wf_bytes [104; 105]) by (apply wf_bytesb_iff; reflexivity).
  assert (S : ksealed 23 (repeatz 7 16) 8 [104; 105] ct).
  { exists (repeatz 1 8). split; [reflexivity|]. split; [apply wf_bytesb_iff; reflexivity | exact E]. }
  split; [exact K|]. split; [exact S|]. exact (ksealed_decrypt 23 _ 8 _ ct K M S).
Qed.

Example ksealed_16_pads :
  exists ct, ksealed 16 (repeatz 7 24) 3 [104; 105] ct /\
             decrypt 16 (repeatz 7 24) 3 ct = Ok ([104; 105] ++ [0; 0; 0; 0; 0; 0]).
Proof.
  assert (E : exists ct, encrypt_with 16 (repeatz 7 24) 3 (repeatz 1 8) [104; 105] = Ok ct)
    by (vm_compute; eexists; reflexivity).
  destruct E as [ct E]. exists ct.
  assert (M : wf_bytes [104; 105]) by (apply wf_bytesb_iff; reflexivity).
  assert (S : ksealed 16 (repeatz 7 24) 3 [104; 105] ct).
  { exists (repeatz 1 8). split; [reflexivity|]. split; [apply wf_bytesb_iff; reflexivity | exact E]. }
  split; [exact S|]. exact (ksealed_decrypt 16 _ 3 _ ct I M S).
Qed.

(* The concrete exchanges of KDCRepBytesExamples.v (sealed with the executable aes128-cts-hmac-sha1-96) satisfy
   every hypothesis: their acceptance follows from the theorems, with trailing octets after the wire. *)
Module HonestEx.
  Import Ex.

  Lemma ex_encode n : n = 25 \/ n = 26 -> encode (TApp n rfc_EncKDCRepPart) (inject_enc_rep x er) = Some (plain n).
  Proof. intros [-> | ->]; vm_compute; reflexivity. Qed.

  Example as_accepted_by_theorem :
    asrep_verify_bytes skew creds_kt rq (as_wire ++ [0; 0; 0]) now = Ok true.
  Proof.
    apply (honest_asrep_accepted skew creds_kt rq as_val as_wire [0; 0; 0] as_rp now 25 x er (plain 25) key 17).
    - exact as_wf.
    - exact as_encode.
    - exact as_project.
    - left; reflexivity.
    - apply er_wf.
    - apply ex_encode. left; reflexivity.
    - vm_compute. reflexivity.
    - apply wf_bytesb_iff. vm_compute. reflexivity.
    - exists (repeatz 9 16). split; [reflexivity|]. split; [apply wf_bytesb_iff; vm_compute; reflexivity|].
      vm_compute. reflexivity.
    - reflexivity.
    - reflexivity.
    - reflexivity.
    - reflexivity.
    - reflexivity.
    - left; reflexivity.
    - vm_compute. discriminate.
    - reflexivity.
  Qed.

  Definition tgs_rp : kdc_rep := mkRep [user] realm realm 17 0 tgs_cipher [].

  Example tgs_accepted_by_theorem :
    tgsrep_verify_bytes skew 17 skey trq (enc rfc_TGSRep tgs_val ++ [0; 0; 0]) now = Ok true.
  Proof.
    apply (honest_tgsrep_accepted skew 17 skey trq tgs_val (enc rfc_TGSRep tgs_val) [0; 0; 0] tgs_rp now 26 x er (plain 26)).
    - exact tgs_wf.
    - vm_compute. reflexivity.
    - vm_compute. reflexivity.
    - right; reflexivity.
    - apply er_wf.
    - apply ex_encode. right; reflexivity.
    - apply wf_bytesb_iff. vm_compute. reflexivity.
    - exists (repeatz 9 16). split; [reflexivity|]. split; [apply wf_bytesb_iff; vm_compute; reflexivity|].
      vm_compute. reflexivity.
    - reflexivity.
    - reflexivity.
    - reflexivity.
    - reflexivity.
    - intros a [].
    - right. vm_compute. discriminate.
  Qed.
End HonestEx.
