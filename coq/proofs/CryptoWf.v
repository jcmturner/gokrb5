(* Well-formedness (every element a byte 0..255) of hash outputs, derived keys and AES states: what the
   block-cipher inverse theorems of prim/AESInverse.v need in order to apply to the keys the profiles derive. *)
From Gokrb5.lib Require Import Bytes JV.
From Gokrb5.prim Require Import HashCommon SHA1 SHA256 SHA512 MD5 HMAC CBC AES AESInverse.
From Gokrb5.model Require Import Crypto.

Lemma sha1_wf m : wf_bytes (sha1 m).
Proof. unfold sha1. destruct (sha1_state m) as [[[[? ?] ?] ?] ?]. apply flat_map_wf, be32_bytes_wf. Qed.
Lemma sha256_wf m : wf_bytes (sha256 m).
Proof. unfold sha256. destruct (sha256_state m) as [[[[[[[? ?] ?] ?] ?] ?] ?] ?]. apply flat_map_wf, be32_bytes_wf. Qed.
Lemma sha384_wf m : wf_bytes (sha384 m).
Proof. unfold sha384. destruct (sha512_state sha384_iv m) as [[[[[[[? ?] ?] ?] ?] ?] ?] ?]. apply flat_map_wf, be64_bytes_wf. Qed.
Lemma md5_wf m : wf_bytes (md5 m).
Proof. unfold md5. destruct (md5_state m) as [[[? ?] ?] ?]. apply flat_map_wf, le32_bytes_wf. Qed.

Lemma hmac_wf h bs k m : (forall x, wf_bytes (h x)) -> wf_bytes (hmac h bs k m).
Proof. intros H. unfold hmac. apply H. Qed.

Lemma et_hmac_wf et k d : wf_bytes (et_hmac et k d).
Proof.
  unfold et_hmac. destruct (et =? 19); [apply hmac_wf, sha256_wf|].
  destruct (et =? 20); [apply hmac_wf, sha384_wf|].
  destruct (et =? 23); [apply hmac_wf, md5_wf|apply hmac_wf, sha1_wf].
Qed.

Lemma enc_rounds_st rks : Forall wf_bytes rks -> forall s, st s -> st (enc_rounds rks s).
Proof.
  induction 1 as [|rk rest Hrk Hrest IH]; intros s Hs; cbn [enc_rounds]; [exact Hs|].
  destruct rest as [|rk2 rest2].
  - apply st_ark; [apply st_sr, st_sb, Hs | exact Hrk].
  - apply IH. apply st_ark; [apply st_mc, st_sr, st_sb, Hs | exact Hrk].
Qed.

Lemma aes_encrypt_rk_st rks blk : Forall wf_bytes rks -> st blk -> st (aes_encrypt_rk rks blk).
Proof.
  intros Hr Hb. unfold aes_encrypt_rk. destruct rks as [|rk0 rest]; [exact Hb|].
  inversion Hr as [|? ? H0 Hrest]; subst. apply enc_rounds_st; [exact Hrest|]. apply st_ark; assumption.
Qed.

Lemma aes_ecb_st key b : wf_bytes key -> length b = 16%nat -> wf_bytes b -> st (aes_ecb key b).
Proof. intros Hk Hl Hw. unfold aes_ecb. apply aes_encrypt_rk_st; [apply aes_expand_key_wf, Hk | split; assumption]. Qed.

Lemma aes_ecb_inverse key : wf_bytes key -> forall b, length b = 16%nat -> wf_bytes b -> aes_ecb_dec key (aes_ecb key b) = b.
Proof. intros Hk b Hl Hw. unfold aes_ecb, aes_ecb_dec. now apply aes_decrypt_encrypt_rk. Qed.

Lemma aes_cipher key : wf_bytes key -> cipher 16 (aes_ecb key) (aes_ecb_dec key).
Proof. intros Hk b [Hl Hw]. split; [now apply aes_ecb_st | now apply aes_ecb_inverse]. Qed.

Lemma dr_blocks_wf (e : bytes -> bytes) n : (forall k, st k -> st (e k)) -> forall k, st k -> wf_bytes (dr_blocks e n k).
Proof.
  intros He. induction n as [|n IH]; intros k Hk; cbn [dr_blocks]; [constructor|].
  apply wf_bytes_app. split; [apply He, Hk | apply IH, He, Hk].
Qed.

Lemma nfold_st c : c <> [] -> st (nfold c 128).
Proof.
  intros Hc. unfold nfold.
  assert (0 < zlen c) as Hz by (unfold zlen; destruct c; [congruence|cbn [length]; lia]).
  destruct ((8 * zlen c <=? 0) || (128 <=? 0)) eqn:E.
  - apply orb_true_iff in E. destruct E as [E|E]; [apply Z.leb_le in E; lia | discriminate].
  - split; [rewrite be_bytes_length; reflexivity | apply be_bytes_wf].
Qed.

Lemma usage_const_nonempty u o : usage_const u o <> [].
Proof. unfold usage_const. intros H. apply (f_equal (@length Z)) in H. rewrite app_length in H. cbn in H. lia. Qed.

Lemma derive_key_aes_wf et key c ke :
  (et_family et = Some FAesSha1 \/ et_family et = Some FAesSha2) -> wf_bytes key -> c <> [] ->
  derive_key et key c = Ok ke -> wf_bytes ke.
Proof.
  intros Hf Hk Hc. unfold derive_key. destruct Hf as [Hf|Hf]; rewrite Hf.
  - destruct (negb _); [discriminate|]. intros H. injection H as <-.
    unfold dr. apply wf_firstn. apply dr_blocks_wf; [|apply nfold_st, Hc].
    intros k [Hl Hw]. now apply aes_ecb_st.
  - destruct (et =? 19).
    + intros H. injection H as <-. unfold kdf_hmac_sha2. apply wf_firstn, hmac_wf, sha256_wf.
    + intros H. injection H as <-. unfold kdf_hmac_sha2. apply wf_firstn, hmac_wf, sha384_wf.
Qed.
