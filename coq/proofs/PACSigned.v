(* What the server signature covers, and how the declared type binds length and algorithm. *)
From Gokrb5.lib Require Import Bytes.
From Gokrb5.model Require Import Crypto PAC.
From Gokrb5.proofs Require Import CryptoBasic PACAccept.

Lemma nth_error_splice (z : bytes) off src j : 0 <= off -> (Z.to_nat off + length src <= length z)%nat ->
  nth_error (splice z off src) j =
  if (j <? Z.to_nat off)%nat then nth_error z j
  else if (j <? Z.to_nat off + length src)%nat then nth_error src (j - Z.to_nat off)
  else nth_error z j.
Proof.
  intros H0 H. unfold splice. set (o := Z.to_nat off) in *.
  destruct (Nat.ltb_spec j o) as [A|A].
  - rewrite nth_error_app1 by (rewrite firstn_length; lia). apply nth_error_firstn; lia.
  - rewrite nth_error_app2 by (rewrite firstn_length; lia). rewrite firstn_length, Nat.min_l by lia.
    destruct (Nat.ltb_spec j (o + length src)) as [B|B].
    + rewrite nth_error_app1 by lia. reflexivity.
    + rewrite nth_error_app2 by lia. rewrite nth_error_skipn. f_equal. lia.
Qed.

Lemma nth_error_zeros n i : (i < n)%nat -> nth_error (zeros n) i = Some 0.
Proof. unfold zeros. revert i; induction n; intros [|i] H; cbn; try lia; auto. apply IHn; lia. Qed.

Lemma zeroed_nth p i : sig_short p = false ->
  ~ (4 <= Z.of_nat i < 4 + sig_len (le_val (firstn 4 p))) -> nth_error (zeroed p) i = nth_error p i.
Proof.
  unfold sig_short, zeroed. pose proof (sig_len_range (le_val (firstn 4 p))) as Hc.
  set (c := sig_len (le_val (firstn 4 p))) in *.
  destruct (Z.ltb_spec (zlen p) (4 + c)) as [|Hl]; [discriminate|]. intros _ Hi. unfold zlen in Hl.
  destruct (Nat.ltb_spec i 4) as [A|A].
  - rewrite nth_error_app1 by (rewrite firstn_length; lia). apply nth_error_firstn; lia.
  - rewrite nth_error_app2 by (rewrite firstn_length; lia). rewrite firstn_length, Nat.min_l by lia.
    rewrite nth_error_app2 by (rewrite zeros_length; lia). rewrite zeros_length, nth_error_skipn. f_equal. lia.
Qed.

Definition covered (F : list (Z * Z)) (j : nat) : Prop :=
  exists lo hi, In (lo, hi) F /\ lo <= Z.of_nat j < hi.

Lemma covered_app_l F G j : covered F j -> covered (F ++ G) j.
Proof. intros (lo & hi & I & R). exists lo, hi. split; [apply in_or_app; left; exact I|exact R]. Qed.

Lemma step_outside data b z F j :
  let p := slice data (ib_off b) (ib_off b + ib_size b) in
  in_bounds data b = true -> length z = length data -> sig_short p = false ->
  (~ covered F j -> nth_error z j = nth_error data j) ->
  length (splice z (ib_off b) (zeroed p)) = length data /\
  (~ covered (F ++ [(ib_off b + 4, ib_off b + 4 + sig_len (le_val (firstn 4 p)))]) j ->
   nth_error (splice z (ib_off b) (zeroed p)) j = nth_error data j).
Proof.
  intros p. unfold in_bounds. intros IB Lz Sh Inv.
  destruct (Z.leb_spec 0 (ib_off b)) as [O0|]; [|discriminate].
  destruct (Z.leb_spec 0 (ib_size b)) as [S0|]; [|discriminate].
  destruct (Z.leb_spec (ib_off b + ib_size b) (zlen data)) as [OS|]; [|discriminate]. clear IB.
  assert (Lp : length p = Z.to_nat (ib_size b)) by (unfold p; rewrite slice_length by lia; f_equal; lia).
  pose proof (zeroed_length p Sh) as Lzb. pose proof (zeroed_nth p (j - Z.to_nat (ib_off b)) Sh) as Hn.
  assert (Hfit : (Z.to_nat (ib_off b) + length (zeroed p) <= length z)%nat) by (unfold zlen in *; lia).
  split; [rewrite splice_length by exact Hfit; exact Lz|].
  intros NC. rewrite nth_error_splice by (try exact Hfit; lia).
  assert (NF : ~ covered F j) by (intros C; apply NC, covered_app_l, C).
  destruct (Nat.ltb_spec j (Z.to_nat (ib_off b))) as [A|A]; [apply Inv, NF|].
  destruct (Nat.ltb_spec j (Z.to_nat (ib_off b) + length (zeroed p))) as [B|B]; [|apply Inv, NF].
  rewrite Hn.
  - unfold p. rewrite nth_error_slice by lia. f_equal. lia.
  - intros R. apply NC. eexists _, _. split; [apply in_or_app; right; left; reflexivity|lia].
Qed.

Lemma zero_loop_outside data t : forall s6 s7 z F j,
  length z = length data ->
  (~ covered F j -> nth_error z j = nth_error data j) ->
  ~ covered (F ++ sig_fields_loop data s6 s7 t) j ->
  nth_error (zero_loop data s6 s7 t z) j = nth_error data j.
Proof.
  induction t as [|b t IH]; intros s6 s7 z F j Lz Inv NC; cbn [zero_loop sig_fields_loop] in *.
  { apply Inv. rewrite app_nil_r in NC. exact NC. }
  assert (NF : ~ covered F j) by (intros C; apply NC, covered_app_l, C).
  destruct (in_bounds data b) eqn:IB; [|apply Inv, NF].
  rewrite zero_field_eq in *.
  destruct ((ib_type b =? 6) && negb s6).
  { destruct (sig_short _) eqn:Sh; [apply Inv, NF|].
    destruct (step_outside data b z F j IB Lz Sh Inv) as [L1 I1].
    apply (IH true s7 _ _ j L1 I1). rewrite <- app_assoc. exact NC. }
  destruct ((ib_type b =? 7) && negb s7).
  { destruct (sig_short _) eqn:Sh; [apply Inv, NF|].
    destruct (step_outside data b z F j IB Lz Sh Inv) as [L1 I1].
    apply (IH s6 true _ _ j L1 I1). rewrite <- app_assoc. exact NC. }
  apply (IH s6 s7 z F j Lz Inv NC).
Qed.

Theorem zero_sigs_outside data j :
  ~ covered (sig_fields data) j -> nth_error (zero_sigs data) j = nth_error data j.
Proof.
  intros NC. unfold zero_sigs. apply (zero_loop_outside data (table_of data) false false data [] j eq_refl).
  - reflexivity.
  - exact NC.
Qed.

(* Two PACs with the same signature-field positions and the same signed image are equal everywhere
   outside those fields: every bit outside the two signature values is covered by the server signature
   (header, table, all buffers, the declared signature types, RODC identifiers, padding). *)
Theorem zero_sigs_determines_rest p p' :
  sig_fields p = sig_fields p' -> zero_sigs p = zero_sigs p' ->
  forall j, ~ covered (sig_fields p) j -> nth_error p j = nth_error p' j.
Proof.
  intros SF ZS j NC.
  rewrite <- (zero_sigs_outside p j NC). rewrite ZS. apply zero_sigs_outside. rewrite <- SF. exact NC.
Qed.

(* equal images have equal length *)
Corollary zero_sigs_determines_length p p' : zero_sigs p = zero_sigs p' -> length (zero_sigs p) = length (zero_sigs p').
Proof. intros ->. reflexivity. Qed.

Lemma sig_fields_loop_small data t : forall s6 s7,
  (length (sig_fields_loop data s6 s7 t) <= (if s6 then 0 else 1) + (if s7 then 0 else 1))%nat /\
  Forall (fun r => 0 <= snd r - fst r <= 24) (sig_fields_loop data s6 s7 t).
Proof.
  induction t as [|b t IH]; intros s6 s7; cbn [sig_fields_loop]; [split; [apply Nat.le_0_l|constructor]|].
  destruct (in_bounds data b); [|split; [apply Nat.le_0_l|constructor]].
  pose proof (sig_len_range (le_val (firstn 4 (slice data (ib_off b) (ib_off b + ib_size b))))) as Hc.
  (* a field is added only under a flag that is false, and the flag is true afterwards *)
  destruct ((ib_type b =? 6) && negb s6) eqn:A6.
  { destruct s6; [rewrite andb_false_r in A6; discriminate|].
    destruct (zero_field _); [|split; [apply Nat.le_0_l|constructor]]. destruct (IH true s7) as [L F].
    split; [cbn [length] in *; lia|constructor; [cbn [fst snd]; lia|exact F]]. }
  destruct ((ib_type b =? 7) && negb s7) eqn:A7; [|apply IH].
  destruct s7; [rewrite andb_false_r in A7; discriminate|].
  destruct (zero_field _); [|split; [apply Nat.le_0_l|constructor]]. destruct (IH s6 true) as [L F].
  split; [cbn [length] in *; lia|constructor; [cbn [fst snd]; lia|exact F]].
Qed.

Theorem sig_fields_small data :
  (length (sig_fields data) <= 2)%nat /\ Forall (fun r => 0 <= snd r - fst r <= 24) (sig_fields data).
Proof. unfold sig_fields. destruct (sig_fields_loop_small data (table_of data) false false) as [L F]. split; [cbn in L; lia|exact F]. Qed.

(* the length table of SignatureData.Unmarshal agrees with the MAC length of the etype of the declared
   type for the five types it knows; des3 (12) maps to an etype but has length 0 in the table *)
Lemma sig_len_mac_len st et : 0 <= st < 2 ^ 32 ->
  etype_of_chksum_type (sint 32 st) = Some et -> et <> 16 -> sig_len st = Z.of_nat (mac_len et).
Proof.
  intros R E N. apply chksum_etype_only_iana in E.
  assert (Hst : st = sint 32 st mod 2 ^ 32) by (rewrite sint_wrap, Z.mod_small by lia; reflexivity).
  destruct E as [E|[E|[E|[E|[E|[E|[]]]]]]]; injection E as Hc <-; [congruence|..]; rewrite Hst, <- Hc; reflexivity.
Qed.

(* Acceptance implies: the declared type of the server signature is one gokrb5 maps to an etype, the
   signature value that was read has exactly the MAC length of that etype (so it was cut out with the
   length of the declared type), and it is that etype's checksum.  Unknown types and des3 (whose
   20-byte MAC cannot equal the 0 bytes read) are therefore always rejected. *)
Theorem declared_type_binds data key dec st :
  pac_process data key dec = Ok st ->
  exists it sd et,
    first_of 6 (items_of data dec) = Some it /\ sig_spec (buf_bytes data it) sd /\
    st_srv st = Some sd /\
    zlen (sd_sig sd) = sig_len (sd_type sd) /\
    etype_of_chksum_type (sint 32 (sd_type sd)) = Some et /\
    length (sd_sig sd) = mac_len et /\
    et <> 16 /\
    checksum et key 17 (zero_sigs data) = Ok (sd_sig sd).
Proof.
  intros E. destruct (pac_process_ok_inv _ _ _ _ E) as [(_ & _ & _ & _ & _ & (it & sd & et & F6 & S6 & ET & CK)) SRV].
  pose proof (checksum_length _ _ _ _ _ CK) as CL.
  pose proof S6 as S6'. destruct S6' as (H4 & Hc & Esd). cbv zeta in Hc, Esd.
  assert (Lsig : zlen (sd_sig sd) = sig_len (sd_type sd)).
  { rewrite Esd. cbn [sd_sig sd_type]. pose proof (sig_len_range (le_val (firstn 4 (buf_bytes data it)))).
    rewrite zlen_slice; lia. }
  exists it, sd, et.
  split; [exact F6|]. split; [exact S6|]. split; [exact (SRV it sd F6 S6)|].
  split; [exact Lsig|]. split; [exact ET|]. split; [exact CL|]. split; [|exact CK].
  (* des3: the MAC has 20 bytes, and no entry of the length table is 20 *)
  intros ->. unfold zlen in Lsig. rewrite CL in Lsig. change (Z.of_nat (mac_len 16)) with 20 in Lsig.
  pose proof (sig_len_cases (sd_type sd)) as D. cbn [In] in D. lia.
Qed.

(* an unknown declared type is an error (whatever the rest of the PAC) *)
Corollary unknown_declared_type_rejected data key dec st sd :
  pac_process data key dec = Ok st -> st_srv st = Some sd ->
  etype_of_chksum_type (sint 32 (sd_type sd)) <> None.
Proof.
  intros E S. destruct (declared_type_binds _ _ _ _ E) as (it & sd' & et & _ & _ & S' & _ & ET & _).
  assert (sd' = sd) as -> by congruence. congruence.
Qed.

(* the hypotheses are satisfiable: a concrete signed PAC (rc4-hmac, KERB_CHECKSUM_HMAC_MD5) *)

Definition ex_hdr : bytes :=
  le_bytes 4 4 ++ le_bytes 4 0
  ++ le_bytes 4 1 ++ le_bytes 4 0 ++ le_bytes 8 72        (* KERB_VALIDATION_INFO (decoded by the external decoder) *)
  ++ le_bytes 4 10 ++ le_bytes 4 10 ++ le_bytes 8 72      (* PAC_CLIENT_INFO: FILETIME 0, empty name *)
  ++ le_bytes 4 6 ++ le_bytes 4 20 ++ le_bytes 8 88       (* server signature *)
  ++ le_bytes 4 7 ++ le_bytes 4 20 ++ le_bytes 8 112.     (* KDC signature *)
Definition ex_pac (srv kdc : bytes) : bytes :=
  ex_hdr ++ repeatz 0 16 ++ (le_bytes 4 4294967158 ++ srv) ++ [0;0;0;0] ++ (le_bytes 4 4294967158 ++ kdc) ++ [0;0;0;0].
Definition ex_key : bytes := repeatz 1 16.
Definition ex_sig : bytes := [110; 184; 180; 252; 174; 144; 15; 176; 13; 132; 165; 60; 215; 231; 244; 149].

Example ex_accepted : exists st, pac_process (ex_pac ex_sig (repeatz 7 16)) ex_key [1;0;0;0] = Ok st.
Proof. vm_compute. eauto. Qed.

Example ex_accept_spec : accept_spec (ex_pac ex_sig (repeatz 7 16)) ex_key [1;0;0;0].
Proof. apply pac_accept_iff. exact ex_accepted. Qed.

(* the KDC signature value is not covered (the service has no KDC key): any value is accepted *)
Example ex_kdc_value_free : exists st, pac_process (ex_pac ex_sig (repeatz 99 16)) ex_key [1;0;0;0] = Ok st.
Proof. vm_compute. eauto. Qed.

(* one flipped bit in the client info, in the server signature value, in the declared type, or in the key *)
Example ex_flip_rejected :
  pac_process (ex_hdr ++ [1] ++ repeatz 0 15 ++ (le_bytes 4 4294967158 ++ ex_sig) ++ [0;0;0;0] ++ (le_bytes 4 4294967158 ++ repeatz 7 16) ++ [0;0;0;0])
              ex_key [1;0;0;0] = Err 25
  /\ pac_process (ex_pac (111 :: tl ex_sig) (repeatz 7 16)) ex_key [1;0;0;0] = Err 25
  /\ pac_process (ex_pac ex_sig (repeatz 7 16)) (0 :: repeatz 1 15) [1;0;0;0] = Err 25
  /\ pac_process (ex_hdr ++ repeatz 0 16 ++ (le_bytes 4 4294967159 ++ ex_sig) ++ [0;0;0;0] ++ (le_bytes 4 4294967158 ++ repeatz 7 16) ++ [0;0;0;0])
              ex_key [1;0;0;0] = Err 24
  /\ pac_process (ex_pac ex_sig (repeatz 7 16)) ex_key [0;0;0;0] = Err 11.
Proof. vm_compute. repeat split. Qed.

Example ex_fields : sig_fields (ex_pac ex_sig (repeatz 7 16)) = [(92, 108); (116, 132)].
Proof. vm_compute. reflexivity. Qed.
