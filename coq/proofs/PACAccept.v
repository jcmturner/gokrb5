(* The acceptance set of the PAC model: pac_process returns Ok  <->  header and table fit the input, every
   buffer lies inside the PAC, the first buffer of each mandatory type exists and decodes, and the keyed
   checksum (etype of the declared type, usage 17) of the zeroed image equals the server signature value. *)
From Gokrb5.lib Require Import Bytes.
From Gokrb5.model Require Import Crypto PAC.
From Gokrb5.proofs Require Import CryptoBasic.

Lemma zeros_length n : length (zeros n) = n.
Proof. apply repeatz_length. Qed.

Lemma splice_length (z : bytes) off src : (Z.to_nat off + length src <= length z)%nat ->
  length (splice z off src) = length z.
Proof. intros H. unfold splice. rewrite !app_length, firstn_length, skipn_length. lia. Qed.

Lemma read_le_eq w r : (w <= length r)%nat -> read_le w r = Ok (le_val (firstn w r), skipn w r).
Proof. intros H. unfold read_le. destruct (Nat.ltb_spec (length r) w); [lia|reflexivity]. Qed.

Lemma read_le_short w r : (length r < w)%nat -> read_le w r = Err 1.
Proof. intros H. unfold read_le. destruct (Nat.ltb_spec (length r) w); [reflexivity|lia]. Qed.

Lemma read_le_ok w r v r' : read_le w r = Ok (v, r') ->
  (w <= length r)%nat /\ v = le_val (firstn w r) /\ r' = skipn w r.
Proof.
  unfold read_le. destruct (Nat.ltb_spec (length r) w); [discriminate|].
  intros E; injection E as <- <-. auto.
Qed.

Lemma galloc_ok site lim n : 0 <= n <= lim -> galloc site lim n = Ok tt.
Proof. intros. unfold galloc. destruct (Z.leb_spec 0 n), (Z.leb_spec n lim); cbn; auto; lia. Qed.

Lemma galloc_inv site lim n u : galloc site lim n = Ok u -> 0 <= n <= lim.
Proof. unfold galloc. destruct (Z.leb_spec 0 n), (Z.leb_spec n lim); cbn; try discriminate. lia. Qed.

(* MS-PAC 2.3 (PACTYPE) and 2.4 (PAC_INFO_BUFFER) *)

Definition entry_at (b : bytes) (k : nat) : info_buffer :=
  mkBuf (le_val (firstn 4 (skipn k b)))            (* ulType       : 4 bytes LE at k      *)
        (le_val (firstn 4 (skipn (k + 4) b)))      (* cbBufferSize : 4 bytes LE at k + 4  *)
        (le_val (firstn 8 (skipn (k + 8) b))).     (* Offset       : 8 bytes LE at k + 8  *)

Definition table_at (b : bytes) (n : nat) : list info_buffer :=
  map (fun i => entry_at b (8 + 16 * i)) (seq 0 n).

Definition cbuffers (b : bytes) : Z := le_val (firstn 4 b).

Definition header_ok (b : bytes) : Prop :=
  8 <= zlen b /\ 0 <= cbuffers b /\ 16 * cbuffers b <= zlen b - 8.

Lemma read_table_at n : forall k b, (k + 16 * n <= length b)%nat ->
  read_table n (skipn k b) = Ok (map (fun i => entry_at b (k + 16 * i)) (seq 0 n)).
Proof.
  induction n as [|n IH]; intros k b L; cbn [read_table]; [reflexivity|].
  rewrite read_le_eq by (rewrite skipn_length; lia). cbn [bind].
  rewrite skipn_add, read_le_eq by (rewrite skipn_length; lia). cbn [bind].
  rewrite skipn_add, read_le_eq by (rewrite skipn_length; lia). cbn [bind].
  rewrite skipn_add. replace (k + 4 + 4 + 8)%nat with (k + 16)%nat by lia.
  rewrite IH by lia. cbn [bind]. f_equal.
  cbn [seq map]. f_equal.
  - unfold entry_at. rewrite Nat.mul_0_r, Nat.add_0_r. replace (k + 4 + 4)%nat with (k + 8)%nat by lia. reflexivity.
  - rewrite <- seq_shift, map_map. apply map_ext. intros i. f_equal. lia.
Qed.

(* Panic 91 needs a negative count, which bytes do not give *)
Lemma pac_unmarshal_eq b : pac_unmarshal b =
  if zlen b <? 8 then Err 1
  else if zlen b - 8 <? cbuffers b * 16 then Err 2
  else if cbuffers b <? 0 then Panic 91
  else Ok (mkPac (cbuffers b) (le_val (firstn 4 (skipn 4 b))) (table_at b (Z.to_nat (cbuffers b)))).
Proof.
  unfold pac_unmarshal. rewrite galloc_ok by (pose proof (zlen_nonneg b); lia). cbn [bind].
  destruct (Z.ltb_spec (zlen b) 8) as [L|L].
  { destruct (Nat.ltb_spec (length b) 4); [rewrite read_le_short by assumption; reflexivity|].
    rewrite read_le_eq by assumption. cbn [bind].
    rewrite read_le_short by (rewrite skipn_length; unfold zlen in L; lia). reflexivity. }
  rewrite read_le_eq by (unfold zlen in L; lia). cbn [bind].
  rewrite read_le_eq by (rewrite skipn_length; unfold zlen in L; lia). cbn [bind]. fold (cbuffers b).
  destruct (Z.ltb_spec (zlen b - 8) (cbuffers b * 16)); [reflexivity|].
  destruct (Z.ltb_spec (cbuffers b) 0).
  { unfold galloc. destruct (Z.leb_spec 0 (cbuffers b)); [lia|reflexivity]. }
  rewrite galloc_ok by lia. cbn [bind].
  rewrite skipn_add, read_table_at by (unfold zlen in *; lia). reflexivity.
Qed.

Lemma pac_unmarshal_iff b pt :
  pac_unmarshal b = Ok pt <->
  header_ok b /\ pt = mkPac (cbuffers b) (le_val (firstn 4 (skipn 4 b))) (table_at b (Z.to_nat (cbuffers b))).
Proof.
  rewrite pac_unmarshal_eq. unfold header_ok.
  destruct (Z.ltb_spec (zlen b) 8); [split; [discriminate|lia]|].
  destruct (Z.ltb_spec (zlen b - 8) (cbuffers b * 16)); [split; [discriminate|lia]|].
  destruct (Z.ltb_spec (cbuffers b) 0); [split; [discriminate|lia]|].
  split.
  - intros E; injection E as <-. split; [lia|reflexivity].
  - intros [_ ->]. reflexivity.
Qed.

(* PAC_SIGNATURE_DATA *)

Definition sig_spec (p : bytes) (sd : sigdata) : Prop :=
  4 <= zlen p /\
  let st := le_val (firstn 4 p) in
  let c := sig_len st in
  4 + c <= zlen p /\
  sd = mkSig st (slice p 4 (4 + c))
             (if 4 + c + 2 <=? zlen p then le_val (slice p (4 + c) (4 + c + 2)) else 0).

Definition zeroed (p : bytes) : bytes :=
  let c := sig_len (le_val (firstn 4 p)) in
  firstn 4 p ++ zeros (Z.to_nat c) ++ skipn (Z.to_nat (4 + c)) p.

(* the length table of SignatureData.Unmarshal *)
Lemma sig_len_cases st : In (sig_len st) [16; 12; 24; 0].
Proof. unfold sig_len. repeat destruct (_ =? _); cbn; tauto. Qed.

Lemma sig_len_range st : 0 <= sig_len st <= 24.
Proof. pose proof (sig_len_cases st) as H. cbn in H. lia. Qed.

Definition sig_short (p : bytes) : bool := zlen p <? 4 + sig_len (le_val (firstn 4 p)).

Definition sig_of (p : bytes) : sigdata :=
  let st := le_val (firstn 4 p) in
  let c := sig_len st in
  mkSig st (slice p 4 (4 + c)) (if 4 + c + 2 <=? zlen p then le_val (slice p (4 + c) (4 + c + 2)) else 0).

(* sig_spec is the relational form, used in the statements of C19; sig_short and sig_of give it as a function *)
Lemma sig_spec_iff p sd : sig_spec p sd <-> sig_short p = false /\ sd = sig_of p.
Proof.
  unfold sig_spec, sig_short, sig_of. cbv zeta. pose proof (sig_len_range (le_val (firstn 4 p))).
  destruct (Z.ltb_spec (zlen p) (4 + sig_len (le_val (firstn 4 p)))).
  - split; [intros (_ & L & _); lia|intros [E _]; discriminate].
  - split; [intros (_ & _ & ->); auto|intros [_ ->]; repeat split; lia].
Qed.

Lemma sig_unmarshal_eq lim p : zlen p <= lim ->
  sig_unmarshal lim p = if sig_short p then Err (if zlen p <? 4 then 1 else 3) else Ok (sig_of p, zeroed p).
Proof.
  intros Hl. unfold sig_unmarshal, sig_short, sig_of, zeroed.
  pose proof (sig_len_range (le_val (firstn 4 p))) as Hc.
  destruct (Z.ltb_spec (zlen p) 4) as [L4|L4].
  { rewrite read_le_short by (unfold zlen in L4; lia).
    destruct (Z.ltb_spec (zlen p) (4 + sig_len (le_val (firstn 4 p)))); [reflexivity|lia]. }
  rewrite read_le_eq by (unfold zlen in L4; lia). cbn [bind]. cbv zeta.
  set (c := sig_len (le_val (firstn 4 p))) in *. rewrite zlen_skipn.
  destruct (Z.ltb_spec (zlen p) (4 + c)) as [Hr|Hr];
    (destruct (Z.ltb_spec (Z.max 0 (zlen p - Z.of_nat 4)) c); [|]; try lia); [reflexivity|].
  replace (firstn (Z.to_nat c) (skipn 4 p)) with (slice p 4 (4 + c)) by (apply slice_as_firstn_skipn; lia).
  destruct (Z.leb_spec (4 + c + 2) (zlen p)).
  1: rewrite skipn_add, read_le_eq by (rewrite skipn_length; unfold zlen in *; lia).
  1: replace (firstn 2 (skipn (4 + Z.to_nat c) p)) with (slice p (4 + c) (4 + c + 2))
       by (rewrite slice_as_firstn_skipn by lia; do 2 f_equal; lia).
  all: cbn [bind]; rewrite !galloc_ok, gslice_ok by lia; cbn [bind].
  all: rewrite slice_length by lia; replace (4 + c - 4) with c by lia; reflexivity.
Qed.

Lemma sig_unmarshal_iff lim p sd zb : zlen p <= lim ->
  sig_unmarshal lim p = Ok (sd, zb) <-> sig_spec p sd /\ zb = zeroed p.
Proof.
  intros Hl. rewrite sig_unmarshal_eq, sig_spec_iff by exact Hl. destruct (sig_short p).
  - split; [discriminate|intros [[E _] _]; discriminate].
  - split; [intros E; injection E as <- <-; auto|intros [[_ ->] ->]; reflexivity].
Qed.

Lemma zero_field_eq p : zero_field p = if sig_short p then None else Some (zeroed p).
Proof.
  unfold zero_field, sig_short, zeroed. pose proof (sig_len_range (le_val (firstn 4 p))) as Hc.
  destruct (Z.ltb_spec (zlen p) 4) as [L4|L4].
  { rewrite read_le_short by (unfold zlen in L4; lia).
    destruct (Z.ltb_spec (zlen p) (4 + sig_len (le_val (firstn 4 p)))); [reflexivity|lia]. }
  rewrite read_le_eq by (unfold zlen in L4; lia). cbv zeta. rewrite zlen_skipn.
  destruct (Z.ltb_spec (zlen p) (4 + sig_len (le_val (firstn 4 p))));
    (destruct (Z.ltb_spec (Z.max 0 (zlen p - Z.of_nat 4)) (sig_len (le_val (firstn 4 p)))); [|]; try lia); reflexivity.
Qed.

Lemma zeroed_length p : sig_short p = false -> length (zeroed p) = length p.
Proof.
  unfold sig_short, zeroed. pose proof (sig_len_range (le_val (firstn 4 p))).
  destruct (Z.ltb_spec (zlen p) (4 + sig_len (le_val (firstn 4 p)))); [discriminate|]. intros _.
  rewrite !app_length, firstn_length, zeros_length, skipn_length. unfold zlen in *. lia.
Qed.

Definition ity (it : item) : Z := ib_type (it_buf it).
Definition ioff (it : item) : Z := ib_off (it_buf it).
Definition isize (it : item) : Z := ib_size (it_buf it).

Definition bounds_ok (data : bytes) (it : item) : Prop :=
  0 <= ioff it /\ 0 <= isize it /\ ioff it + isize it <= zlen data.

Definition buf_bytes (data : bytes) (it : item) : bytes := slice data (ioff it) (ioff it + isize it).

Lemma buf_bytes_zlen data it : bounds_ok data it -> zlen (buf_bytes data it) = isize it.
Proof. intros (A & B & C). unfold buf_bytes. rewrite zlen_slice; lia. Qed.

Lemma buf_bytes_le data it : bounds_ok data it -> zlen (buf_bytes data it) <= zlen data.
Proof. intros B. rewrite buf_bytes_zlen by exact B. destruct B as (? & ? & ?). lia. Qed.

Definition val_kvi (it : item) : option Z := if it_ok it then Some (it_idx it) else None.
Definition val_sig (data : bytes) (it : item) : option sigdata :=
  match sig_unmarshal (zlen data) (buf_bytes data it) with Ok (sd, _) => Some sd | _ => None end.
Definition val_ci (data : bytes) (it : item) : option (Z * clientinfo) :=
  match client_info_unmarshal (buf_bytes data it) with Ok ci => Some (it_idx it, ci) | _ => None end.

Lemma val_sig_eq data it : bounds_ok data it ->
  val_sig data it = if sig_short (buf_bytes data it) then None else Some (sig_of (buf_bytes data it)).
Proof.
  intros B. unfold val_sig. rewrite sig_unmarshal_eq by (apply buf_bytes_le, B).
  destruct (sig_short (buf_bytes data it)); reflexivity.
Qed.

Lemma val_sig_spec data it sd : bounds_ok data it -> val_sig data it = Some sd <-> sig_spec (buf_bytes data it) sd.
Proof.
  intros B. rewrite val_sig_eq, sig_spec_iff by exact B. destruct (sig_short (buf_bytes data it)).
  - split; [discriminate|intros [E _]; discriminate].
  - split; [intros E; injection E as <-; auto|intros [_ ->]; reflexivity].
Qed.

Lemma copy_into_splice site z off size src : 0 <= off -> 0 <= size -> off + size <= zlen z ->
  length src = Z.to_nat size -> copy_into site z off size src = Ok (splice z off src).
Proof.
  intros H0 H1 H2 Ls. unfold copy_into, splice. rewrite gslice_ok by lia. cbn [bind].
  rewrite slice_length by lia. replace (off + size - off) with size by lia.
  rewrite <- Ls, Nat.min_id, firstn_all. reflexivity.
Qed.

(* sites 98, 99: the copy into ZeroSigData precedes the decoder's error check *)
Lemma sig_branch_eq site (set : option sigdata -> bytes -> pstate) data z it :
  zlen z = zlen data -> bounds_ok data it ->
  (do z' <- copy_into site z (ioff it) (isize it)
              (match sig_unmarshal (zlen data) (buf_bytes data it) with Ok (_, zb) => zb | _ => [] end);
   do (sd, _) <- sig_unmarshal (zlen data) (buf_bytes data it); Ok (set (Some sd) z'))
  = do (sd, zb) <- sig_unmarshal (zlen data) (buf_bytes data it); Ok (set (Some sd) (splice z (ioff it) zb)).
Proof.
  intros Hz B. pose proof (buf_bytes_zlen _ _ B) as Lp. pose proof B as (O & S & OS).
  rewrite sig_unmarshal_eq by (apply buf_bytes_le, B).
  destruct (sig_short (buf_bytes data it)) eqn:Sh.
  - unfold copy_into. rewrite gslice_ok by lia. reflexivity.
  - rewrite copy_into_splice by (try rewrite zeroed_length by exact Sh; unfold zlen in *; lia). reflexivity.
Qed.

Definition fill_sig (data : bytes) (st : pstate) (it : item) (cur : option sigdata)
    (set : option sigdata -> bytes -> pstate) : res pstate :=
  match cur with
  | Some _ => Ok st
  | None => do (sd, zb) <- sig_unmarshal (zlen data) (buf_bytes data it);
            Ok (set (Some sd) (splice (st_zsd st) (ioff it) zb))
  end.

Definition step_nf (data : bytes) (st : pstate) (it : item) : res pstate :=
  if ity it =? 1 then
    match st_kvi st with
    | Some _ => Ok st
    | None => if it_ok it then Ok (set_kvi st (Some (it_idx it))) else Err 11
    end
  else if ity it =? 2 then Ok st
  else if ity it =? 6 then fill_sig data st it (st_srv st) (set_srv st)
  else if ity it =? 7 then fill_sig data st it (st_kdc st) (set_kdc st)
  else if ity it =? 10 then
    match st_ci st with
    | Some _ => Ok st
    | None => do ci <- client_info_unmarshal (buf_bytes data it); Ok (set_ci st (Some (it_idx it, ci)))
    end
  else if is_optional (ity it) then
    if has_opt (ity it) (st_opt st) || ((ity it =? 13) && (zlen (buf_bytes data it) <? 1)) then Ok st
    else if it_ok it then Ok (add_opt st (ity it) (it_idx it))
    else Ok st
  else Ok st.

Lemma step_eq data st it : zlen (st_zsd st) = zlen data -> bounds_ok data it ->
  step data st it = step_nf data st it.
Proof.
  intros Hz B. pose proof B as (O & S & OS). unfold step, step_nf, fill_sig. cbv zeta.
  change (ib_off (it_buf it)) with (ioff it). change (ib_size (it_buf it)) with (isize it).
  change (ib_type (it_buf it)) with (ity it).
  destruct (Z.ltb_spec (zlen data) (ioff it)); [lia|].
  destruct (Z.ltb_spec (zlen data - ioff it) (isize it)); [lia|]. cbn [orb].
  rewrite galloc_ok, gslice_ok by lia. cbn [bind]. fold (buf_bytes data it).
  rewrite (sig_branch_eq 98 (set_srv st) data (st_zsd st) it Hz B).
  rewrite (sig_branch_eq 99 (set_kdc st) data (st_zsd st) it Hz B). reflexivity.
Qed.

Lemma step_far data st it : zlen data < ioff it + isize it -> step data st it = Err 10.
Proof.
  intros H. unfold step. cbv zeta. fold (ioff it) (isize it).
  destruct (Z.ltb_spec (zlen data) (ioff it)); [reflexivity|].
  destruct (Z.ltb_spec (zlen data - ioff it) (isize it)); [reflexivity|lia].
Qed.

Lemma step_bounds data st it st' : step data st it = Ok st' -> bounds_ok data it.
Proof.
  unfold step, bounds_ok. cbv zeta. fold (ioff it) (isize it).
  destruct (Z.ltb_spec (zlen data) (ioff it)); [discriminate|].
  destruct (Z.ltb_spec (zlen data - ioff it) (isize it)); [discriminate|]. cbn [orb].
  destruct (galloc 96 (zlen data) (isize it)) eqn:G; [|discriminate..]. apply galloc_inv in G. cbn [bind].
  destruct (gslice 97 data (ioff it) (ioff it + isize it)) eqn:S; [|discriminate..]. apply gslice_inv in S. lia.
Qed.

Definition untouched (st st' : pstate) : Prop :=
  st_kvi st' = st_kvi st /\ st_srv st' = st_srv st /\ st_kdc st' = st_kdc st /\ st_ci st' = st_ci st /\
  st_zsd st' = st_zsd st.

Lemma fill_sig_inv data st it cur set st' : bounds_ok data it -> fill_sig data st it cur set = Ok st' ->
  (cur <> None /\ st' = st) \/
  (cur = None /\ exists v, val_sig data it = Some v /\
                           st' = set (Some v) (splice (st_zsd st) (ioff it) (zeroed (buf_bytes data it)))).
Proof.
  intros B. unfold fill_sig. destruct cur.
  - intros E; injection E as <-. left. split; [discriminate|reflexivity].
  - rewrite val_sig_eq, sig_unmarshal_eq by (try apply buf_bytes_le; exact B).
    destruct (sig_short (buf_bytes data it)); [discriminate|].
    intros E; injection E as <-. right. eauto.
Qed.

Lemma step_inv data st it st' :
  zlen (st_zsd st) = zlen data -> step data st it = Ok st' ->
  bounds_ok data it /\
  ( (ity it = 1 /\ st_kvi st = None /\ exists v, val_kvi it = Some v /\ st' = set_kvi st (Some v))
  \/ (ity it = 6 /\ st_srv st = None /\ exists v, val_sig data it = Some v /\
        st' = set_srv st (Some v) (splice (st_zsd st) (ioff it) (zeroed (buf_bytes data it))))
  \/ (ity it = 7 /\ st_kdc st = None /\ exists v, val_sig data it = Some v /\
        st' = set_kdc st (Some v) (splice (st_zsd st) (ioff it) (zeroed (buf_bytes data it))))
  \/ (ity it = 10 /\ st_ci st = None /\ exists v, val_ci data it = Some v /\ st' = set_ci st (Some v))
  \/ (untouched st st' /\ (ity it = 1 -> st_kvi st <> None) /\ (ity it = 6 -> st_srv st <> None) /\
      (ity it = 7 -> st_kdc st <> None) /\ (ity it = 10 -> st_ci st <> None)) ).
Proof.
  intros Hz S. pose proof (step_bounds _ _ _ _ S) as B. split; [exact B|].
  rewrite step_eq in S by assumption. unfold step_nf in S.
  destruct (Z.eqb_spec (ity it) 1) as [T|T1].
  { destruct (st_kvi st) eqn:K.
    - injection S as <-. do 4 right. repeat split; congruence.
    - left. unfold val_kvi. destruct (it_ok it); [|discriminate]. injection S as <-. eauto. }
  destruct (Z.eqb_spec (ity it) 2) as [T|T2].
  { injection S as <-. do 4 right. repeat split; congruence. }
  destruct (Z.eqb_spec (ity it) 6) as [T|T6].
  { apply fill_sig_inv in S; [|exact B]. destruct S as [[N ->]|[N S]].
    - do 4 right. repeat split; congruence.
    - right. left. auto. }
  destruct (Z.eqb_spec (ity it) 7) as [T|T7].
  { apply fill_sig_inv in S; [|exact B]. destruct S as [[N ->]|[N S]].
    - do 4 right. repeat split; congruence.
    - right. right. left. auto. }
  destruct (Z.eqb_spec (ity it) 10) as [T|T10].
  { destruct (st_ci st) eqn:K.
    - injection S as <-. do 4 right. repeat split; congruence.
    - right. right. right. left. unfold val_ci.
      destruct (client_info_unmarshal (buf_bytes data it)); [|discriminate..]. injection S as <-. eauto. }
  do 4 right. split; [|repeat split; congruence].
  destruct (is_optional (ity it)); [|injection S as <-; repeat split].
  destruct (has_opt _ _ || _); [injection S as <-; repeat split|].
  destruct (it_ok it); injection S as <-; repeat split.
Qed.

Lemma fill_sig_ok data st it cur set : (cur = None -> val_sig data it <> None) ->
  exists st', fill_sig data st it cur set = Ok st'.
Proof.
  unfold fill_sig, val_sig. destruct cur; [eauto|]. intros H. specialize (H eq_refl).
  destruct (sig_unmarshal (zlen data) (buf_bytes data it)) as [[sd zb]| |]; [cbn [bind]; eauto|congruence..].
Qed.

(* the mandatory fields: KerbValidationInfo, server signature, KDC signature, ClientInfo *)
Inductive slot := Kvi | Srv | Kdc | Ci.

Definition sval (s : slot) : Type :=
  match s with Kvi => Z | Srv | Kdc => sigdata | Ci => (Z * clientinfo)%type end.
Definition sty (s : slot) : Z := match s with Kvi => 1 | Srv => 6 | Kdc => 7 | Ci => 10 end.
Definition sget (s : slot) : pstate -> option (sval s) :=
  match s with Kvi => st_kvi | Srv => st_srv | Kdc => st_kdc | Ci => st_ci end.
Definition sdec (data : bytes) (s : slot) : item -> option (sval s) :=
  match s with Kvi => val_kvi | Srv | Kdc => val_sig data | Ci => val_ci data end.

Lemma step_ok_exists data st it :
  zlen (st_zsd st) = zlen data -> bounds_ok data it ->
  (forall s, ity it = sty s -> sget s st = None -> sdec data s it <> None) ->
  exists st', step data st it = Ok st'.
Proof.
  intros Hz B H. rewrite step_eq by assumption. unfold step_nf.
  destruct (Z.eqb_spec (ity it) 1) as [T|_].
  { destruct (st_kvi st) eqn:K; [eauto|]. pose proof (H Kvi T K) as V. cbn [sdec] in V. unfold val_kvi in V.
    destruct (it_ok it); [eauto|destruct (V eq_refl)]. }
  destruct (Z.eqb_spec (ity it) 2); [eauto|].
  destruct (Z.eqb_spec (ity it) 6) as [T|_]; [apply fill_sig_ok, (H Srv T)|].
  destruct (Z.eqb_spec (ity it) 7) as [T|_]; [apply fill_sig_ok, (H Kdc T)|].
  destruct (Z.eqb_spec (ity it) 10) as [T|_].
  { destruct (st_ci st) eqn:K; [eauto|]. pose proof (H Ci T K) as V. cbn [sdec] in V. unfold val_ci in V.
    destruct (client_info_unmarshal (buf_bytes data it)); [cbn [bind]; eauto|destruct (V eq_refl)..]. }
  destruct (is_optional (ity it)); [|eauto]. destruct (has_opt _ _ || _); [eauto|]. destruct (it_ok it); eauto.
Qed.

(* the cases of step_inv; callers use T type, N field empty, V value, U* untouched, A* field already filled *)
Ltac step_cases Hz S :=
  let B := fresh "B" in
  destruct (step_inv _ _ _ _ Hz S) as
    (B & [ (T & N & v & V & ->) | [ (T & N & v & V & ->) | [ (T & N & v & V & ->) | [ (T & N & v & V & ->)
         | ((U1 & U6 & U7 & U10 & Uz) & A1 & A6 & A7 & A10) ]]]]).

Lemma sig_image_zlen data z it v : zlen z = zlen data -> bounds_ok data it -> val_sig data it = Some v ->
  zlen (splice z (ioff it) (zeroed (buf_bytes data it))) = zlen data.
Proof.
  intros Hz B V. rewrite val_sig_eq in V by exact B.
  destruct (sig_short (buf_bytes data it)) eqn:Sh; [discriminate|].
  pose proof (buf_bytes_zlen _ _ B). destruct B as (? & ? & ?).
  unfold zlen in *. rewrite splice_length; [lia|]. rewrite zeroed_length by exact Sh. lia.
Qed.

Lemma step_zlen data st it st' : zlen (st_zsd st) = zlen data -> step data st it = Ok st' ->
  zlen (st_zsd st') = zlen data.
Proof.
  intros Hz S. step_cases Hz S; cbn [set_kvi set_srv set_kdc set_ci st_zsd]; try congruence.
  all: apply sig_image_zlen with v; assumption.
Qed.

Lemma slot_keep data s st it st' x : zlen (st_zsd st) = zlen data -> step data st it = Ok st' ->
  sget s st = Some x -> sget s st' = Some x.
Proof. intros Hz S G. destruct s; step_cases Hz S; cbn in *; congruence. Qed.

Lemma slot_other data s st it st' : zlen (st_zsd st) = zlen data -> step data st it = Ok st' ->
  sget s st = None -> ity it <> sty s -> sget s st' = None.
Proof. intros Hz S G Ty. destruct s; step_cases Hz S; cbn in *; congruence. Qed.

Lemma slot_hit data s st it st' : zlen (st_zsd st) = zlen data -> step data st it = Ok st' ->
  sget s st = None -> ity it = sty s -> exists v, sdec data s it = Some v /\ sget s st' = Some v.
Proof. intros Hz S G Ty. destruct s; step_cases Hz S; try (cbn in *; intuition congruence); exists v; auto. Qed.

Lemma loop_ind data (P : list item -> pstate -> pstate -> Prop) :
  (forall st, zlen (st_zsd st) = zlen data -> P [] st st) ->
  (forall it its st st1 st', zlen (st_zsd st) = zlen data -> step data st it = Ok st1 ->
     zlen (st_zsd st1) = zlen data -> process_loop data its st1 = Ok st' -> P its st1 st' -> P (it :: its) st st') ->
  forall its st st', zlen (st_zsd st) = zlen data -> process_loop data its st = Ok st' -> P its st st'.
Proof.
  intros H0 H1. induction its as [|it its IH]; intros st st' Hz; cbn [process_loop].
  - intros E; injection E as <-. apply H0, Hz.
  - destruct (step data st it) as [st1| |] eqn:S; cbn [bind]; try discriminate.
    intros E. pose proof (step_zlen _ _ _ _ Hz S) as Hz1. exact (H1 _ _ _ _ _ Hz S Hz1 E (IH _ _ Hz1 E)).
Qed.

Lemma loop_zlen data its : forall st st', zlen (st_zsd st) = zlen data ->
  process_loop data its st = Ok st' -> zlen (st_zsd st') = zlen data.
Proof. apply (loop_ind data (fun _ _ st' => zlen (st_zsd st') = zlen data)); auto. Qed.

Lemma loop_bounds data its : forall st st', zlen (st_zsd st) = zlen data ->
  process_loop data its st = Ok st' -> Forall (bounds_ok data) its.
Proof.
  apply (loop_ind data (fun its _ _ => Forall (bounds_ok data) its)); [constructor|].
  intros it its0 st st1 st' _ S _ _ IH. constructor; [exact (step_bounds _ _ _ _ S)|exact IH].
Qed.

Definition first_of (ty : Z) (its : list item) : option item := find (fun it => ity it =? ty) its.

Lemma first_of_skip ty it r : ity it <> ty -> first_of ty (it :: r) = first_of ty r.
Proof. intros H. unfold first_of. cbn [find]. destruct (Z.eqb_spec (ity it) ty); [contradiction|reflexivity]. Qed.

Lemma first_of_here ty it r : ity it = ty -> first_of ty (it :: r) = Some it.
Proof. intros H. unfold first_of. cbn [find]. destruct (Z.eqb_spec (ity it) ty); [reflexivity|contradiction]. Qed.

Section Field.
  Variable data : bytes.
  Variable A : Type.
  Variable get : pstate -> option A.
  Variable ty : Z.
  Variable val : item -> option A.
  Hypothesis keep : forall st it st' x, zlen (st_zsd st) = zlen data ->
    step data st it = Ok st' -> get st = Some x -> get st' = Some x.
  Hypothesis other : forall st it st', zlen (st_zsd st) = zlen data ->
    step data st it = Ok st' -> get st = None -> ity it <> ty -> get st' = None.
  Hypothesis hit : forall st it st', zlen (st_zsd st) = zlen data ->
    step data st it = Ok st' -> get st = None -> ity it = ty -> exists v, val it = Some v /\ get st' = Some v.

  Lemma loop_keep its : forall st st', zlen (st_zsd st) = zlen data ->
    process_loop data its st = Ok st' -> forall x, get st = Some x -> get st' = Some x.
  Proof.
    apply (loop_ind data (fun _ st st' => forall x, get st = Some x -> get st' = Some x)); [auto|].
    intros it its0 st st1 st' Hz S _ _ IH x G. exact (IH x (keep _ _ _ _ Hz S G)).
  Qed.

  Lemma loop_first its : forall st st', zlen (st_zsd st) = zlen data ->
    process_loop data its st = Ok st' -> get st = None ->
    match first_of ty its with
    | Some it => exists v, val it = Some v /\ get st' = Some v
    | None => get st' = None
    end.
  Proof.
    apply (loop_ind data (fun its st st' => get st = None ->
      match first_of ty its with Some it => exists v, val it = Some v /\ get st' = Some v | None => get st' = None end)).
    { intros st _ G. exact G. }
    intros it its0 st st1 st' Hz S Hz1 E IH G. unfold first_of. cbn [find].
    destruct (Z.eqb_spec (ity it) ty) as [Ty|Ty].
    - destruct (hit _ _ _ Hz S G Ty) as (v & Hv & Gv). exists v. split; [exact Hv|].
      exact (loop_keep its0 st1 st' Hz1 E v Gv).
    - apply IH. exact (other _ _ _ Hz S G Ty).
  Qed.

  Lemma carry st it st1 : zlen (st_zsd st) = zlen data -> step data st it = Ok st1 -> get st1 = None ->
    get st = None /\ ity it <> ty.
  Proof.
    intros Hz S G. destruct (get st) eqn:G0.
    - rewrite (keep _ _ _ _ Hz S G0) in G. discriminate.
    - split; [reflexivity|]. intros Ty. destruct (hit _ _ _ Hz S G0 Ty) as (v & _ & Gv). congruence.
  Qed.

  Lemma carry_first (P : item -> Prop) st it st1 its : zlen (st_zsd st) = zlen data -> step data st it = Ok st1 ->
    (get st = None -> forall i, first_of ty (it :: its) = Some i -> P i) ->
    get st1 = None -> forall i, first_of ty its = Some i -> P i.
  Proof.
    intros Hz S H G1 i F. destruct (carry st it st1 Hz S G1) as [G Ty].
    apply (H G). rewrite first_of_skip by exact Ty. exact F.
  Qed.
End Field.

Definition is_some {A} (o : option A) : bool := match o with Some _ => true | None => false end.

Lemma annotate_bufs t : forall i dec, map it_buf (annotate i t dec) = t.
Proof. induction t as [|b t IH]; intros i dec; cbn [annotate]; [reflexivity|]. destruct dec; cbn [map it_buf]; rewrite IH; reflexivity. Qed.

Lemma bounds_in_bounds data it : bounds_ok data it -> in_bounds data (it_buf it) = true.
Proof.
  unfold bounds_ok, in_bounds, ioff, isize. intros (A & B & C).
  destruct (Z.leb_spec 0 (ib_off (it_buf it))), (Z.leb_spec 0 (ib_size (it_buf it))),
           (Z.leb_spec (ib_off (it_buf it) + ib_size (it_buf it)) (zlen data)); cbn; auto; lia.
Qed.

Lemma zero_loop_skip data s6 s7 b r z : in_bounds data b = true ->
  (ib_type b = 6 -> s6 = true) -> (ib_type b = 7 -> s7 = true) ->
  zero_loop data s6 s7 (b :: r) z = zero_loop data s6 s7 r z.
Proof.
  intros B A6 A7. cbn [zero_loop]. rewrite B.
  destruct (Z.eqb_spec (ib_type b) 6) as [T|_]; [rewrite (A6 T)|];
    (destruct (Z.eqb_spec (ib_type b) 7) as [T'|_]; [rewrite (A7 T')|]); reflexivity.
Qed.

Lemma zero_loop_6 data s7 b r z zb : in_bounds data b = true -> ib_type b = 6 ->
  zero_field (slice data (ib_off b) (ib_off b + ib_size b)) = Some zb ->
  zero_loop data false s7 (b :: r) z = zero_loop data true s7 r (splice z (ib_off b) zb).
Proof. intros B T Z. cbn [zero_loop]. rewrite B, T, Z. reflexivity. Qed.

Lemma zero_loop_7 data s6 b r z zb : in_bounds data b = true -> ib_type b = 7 ->
  zero_field (slice data (ib_off b) (ib_off b + ib_size b)) = Some zb ->
  zero_loop data s6 false (b :: r) z = zero_loop data s6 true r (splice z (ib_off b) zb).
Proof. intros B T Z. cbn [zero_loop]. rewrite B, T, Z. cbn. reflexivity. Qed.

Lemma val_sig_zero_field data it v : bounds_ok data it -> val_sig data it = Some v ->
  zero_field (buf_bytes data it) = Some (zeroed (buf_bytes data it)).
Proof.
  intros B V. rewrite val_sig_eq in V by exact B. rewrite zero_field_eq.
  destruct (sig_short (buf_bytes data it)); [discriminate|reflexivity].
Qed.

(* zero_loop gives up at the first buffer that is out of bounds or does not decode; process_loop fails
   there, so a successful run never takes that exit *)
Lemma loop_zsd data its : forall st st', zlen (st_zsd st) = zlen data ->
  process_loop data its st = Ok st' ->
  st_zsd st' = zero_loop data (is_some (st_srv st)) (is_some (st_kdc st)) (map it_buf its) (st_zsd st).
Proof.
  apply (loop_ind data (fun its st st' =>
    st_zsd st' = zero_loop data (is_some (st_srv st)) (is_some (st_kdc st)) (map it_buf its) (st_zsd st))); [reflexivity|].
  intros it its0 st st1 st' Hz S _ _ ->. cbn [map].
  step_cases Hz S; pose proof (bounds_in_bounds _ _ B) as IB; unfold ity in *.
  - rewrite zero_loop_skip; [reflexivity|exact IB|congruence..].
  - rewrite N. rewrite (zero_loop_6 data _ (it_buf it) _ _ _ IB T (val_sig_zero_field _ _ _ B V)). reflexivity.
  - rewrite N. rewrite (zero_loop_7 data _ (it_buf it) _ _ _ IB T (val_sig_zero_field _ _ _ B V)). reflexivity.
  - rewrite zero_loop_skip; [reflexivity|exact IB|congruence..].
  - rewrite U6, U7, Uz. rewrite zero_loop_skip; [reflexivity|exact IB| |].
    + intros T. destruct (st_srv st); [reflexivity|destruct (A6 T eq_refl)].
    + intros T. destruct (st_kdc st); [reflexivity|destruct (A7 T eq_refl)].
Qed.

Lemma loop_complete data its : forall st, zlen (st_zsd st) = zlen data -> Forall (bounds_ok data) its ->
  (forall s, sget s st = None -> forall it, first_of (sty s) its = Some it -> sdec data s it <> None) ->
  exists st', process_loop data its st = Ok st'.
Proof.
  induction its as [|it its IH]; intros st Hz HB H; cbn [process_loop]; [eauto|].
  inversion HB as [|? ? Bit Brest]; subst.
  destruct (step_ok_exists data st it Hz Bit) as [st1 S].
  { intros s T N. exact (H s N it (first_of_here _ _ _ T)). }
  rewrite S. cbn [bind]. apply IH; [eapply step_zlen; eauto|exact Brest|].
  intros s. exact (carry_first data _ (sget s) (sty s) (sdec data s) (slot_keep data s) (slot_hit data s) _ st it st1 its Hz S (H s)).
Qed.

Definition items_of (data : bytes) (dec : list Z) : list item :=
  annotate 0 (table_at data (Z.to_nat (cbuffers data))) dec.

Definition accept_spec (data key : bytes) (dec : list Z) : Prop :=
  (* header and table fit the input (the count is checked against the input length) *)
  header_ok data /\
  (* every buffer of the table, whatever its type, lies inside the PAC *)
  Forall (bounds_ok data) (items_of data dec) /\
  (* mandatory buffers: the FIRST of each type exists and decodes *)
  (exists it, first_of 1 (items_of data dec) = Some it /\ it_ok it = true) /\
  (exists it ci, first_of 10 (items_of data dec) = Some it /\ client_info_unmarshal (buf_bytes data it) = Ok ci) /\
  (exists it sd, first_of 7 (items_of data dec) = Some it /\ sig_spec (buf_bytes data it) sd) /\
  (* the server signature: declared type -> etype, keyed checksum with usage 17 over the zeroed image *)
  (exists it sd et, first_of 6 (items_of data dec) = Some it /\ sig_spec (buf_bytes data it) sd /\
       etype_of_chksum_type (sint 32 (sd_type sd)) = Some et /\
       checksum et key 17 (zero_sigs data) = Ok (sd_sig sd)).

Definition found {A} (ty : Z) (val : item -> option A) (its : list item) (o : option A) : Prop :=
  match first_of ty its with
  | Some it => exists v, val it = Some v /\ o = Some v
  | None => o = None
  end.

Lemma found_some {A} ty (val : item -> option A) its x : found ty val its (Some x) ->
  exists it, first_of ty its = Some it /\ val it = Some x.
Proof. unfold found. destruct (first_of ty its) as [it|]; [|discriminate]. intros (v & V & E). injection E as ->. eauto. Qed.

Lemma found_at {A} ty (val : item -> option A) its o it x : first_of ty its = Some it -> val it = Some x ->
  found ty val its o -> o = Some x.
Proof. unfold found. intros -> V (v & V' & ->). congruence. Qed.

Lemma loop_summary data its st : process_loop data its (init_state data) = Ok st ->
  Forall (bounds_ok data) its /\
  (forall s, found (sty s) (sdec data s) its (sget s st)) /\
  st_zsd st = zero_loop data false false (map it_buf its) data.
Proof.
  intros L. assert (Hz : zlen (st_zsd (init_state data)) = zlen data) by reflexivity.
  split; [exact (loop_bounds _ _ _ _ Hz L)|]. split; [|exact (loop_zsd _ _ _ _ Hz L)].
  intros s. apply (loop_first data _ (sget s) (sty s) (sdec data s) (slot_keep data s) (slot_other data s) (slot_hit data s) its _ _ Hz L).
  destruct s; reflexivity.
Qed.

Lemma first_of_bounds data ty its it : Forall (bounds_ok data) its -> first_of ty its = Some it -> bounds_ok data it.
Proof. intros HB F. apply find_some in F. rewrite Forall_forall in HB. apply HB, F. Qed.

Lemma zero_sigs_items data dec : header_ok data ->
  zero_sigs data = zero_loop data false false (map it_buf (items_of data dec)) data.
Proof.
  intros HO. unfold zero_sigs, table_of, items_of.
  rewrite (proj2 (pac_unmarshal_iff data _) (conj HO eq_refl)), annotate_bufs. reflexivity.
Qed.

Lemma pac_verify_ok key st : pac_verify key st = Ok tt <->
  exists k sd kd ci et, st_kvi st = Some k /\ st_srv st = Some sd /\ st_kdc st = Some kd /\ st_ci st = Some ci /\
    etype_of_chksum_type (sint 32 (sd_type sd)) = Some et /\ checksum et key 17 (st_zsd st) = Ok (sd_sig sd).
Proof.
  unfold pac_verify. split.
  - destruct (st_kvi st) as [k|]; [|discriminate]. destruct (st_srv st) as [sd|]; [|discriminate].
    destruct (st_kdc st) as [kd|]; [|discriminate]. destruct (st_ci st) as [ci|]; [|discriminate].
    destruct (etype_of_chksum_type (sint 32 (sd_type sd))) as [et|] eqn:ET; [|discriminate].
    destruct (verify_checksum et key 17 (st_zsd st) (sd_sig sd)) eqn:V; [|discriminate].
    apply verify_checksum_iff in V. intros _. exists k, sd, kd, ci, et. auto 10.
  - intros (k & sd & kd & ci & et & -> & -> & -> & -> & -> & C). apply verify_checksum_iff in C. rewrite C. reflexivity.
Qed.

Lemma pac_process_ok data key dec st : pac_process data key dec = Ok st <->
  header_ok data /\ process_loop data (items_of data dec) (init_state data) = Ok st /\ pac_verify key st = Ok tt.
Proof.
  unfold pac_process. split.
  - destruct (pac_unmarshal data) as [pt| |] eqn:U; [|discriminate..].
    apply pac_unmarshal_iff in U. destruct U as [HO ->]. cbn [bind pt_buffers]. fold (items_of data dec).
    destruct (process_loop data (items_of data dec) (init_state data)) as [s| |]; [|discriminate..]. cbn [bind].
    destruct (pac_verify key s) as [[]| |] eqn:V; [|discriminate..]. cbn [bind]. intros E; injection E as <-. auto.
  - intros (HO & L & V). rewrite (proj2 (pac_unmarshal_iff data _) (conj HO eq_refl)). cbn [bind pt_buffers].
    fold (items_of data dec). rewrite L. cbn [bind]. rewrite V. reflexivity.
Qed.

Lemma pac_process_ok_inv data key dec st : pac_process data key dec = Ok st ->
  accept_spec data key dec /\
  forall it sd, first_of 6 (items_of data dec) = Some it -> sig_spec (buf_bytes data it) sd -> st_srv st = Some sd.
Proof.
  intros E. apply pac_process_ok in E. destruct E as (HO & L & V).
  apply loop_summary in L. destruct L as (HB & F & ZS).
  pose proof (F Kvi) as F1. pose proof (F Srv) as F6. pose proof (F Kdc) as F7. pose proof (F Ci) as F10.
  cbn [sty sdec sget] in F1, F6, F7, F10. clear F.
  rewrite <- (zero_sigs_items data dec HO) in ZS.
  apply pac_verify_ok in V. destruct V as (k & sd & kd & ci & et & K & SR & KD & CI & ET & CK).
  rewrite ZS in CK. rewrite K in F1. rewrite SR in F6. rewrite KD in F7. rewrite CI in F10.
  apply found_some in F1, F6, F7, F10.
  destruct F1 as (i1 & E1 & V1), F6 as (i6 & E6 & V6), F7 as (i7 & E7 & V7), F10 as (i10 & E10 & V10).
  apply val_sig_spec in V6; [|exact (first_of_bounds _ _ _ _ HB E6)].
  apply val_sig_spec in V7; [|exact (first_of_bounds _ _ _ _ HB E7)].
  split.
  - split; [exact HO|]. split; [exact HB|]. repeat split.
    + exists i1. split; [exact E1|]. unfold val_kvi in V1. destruct (it_ok i1); [reflexivity|discriminate].
    + unfold val_ci in V10. destruct (client_info_unmarshal (buf_bytes data i10)) as [c| |] eqn:C; [|discriminate..].
      exists i10, c. auto.
    + exists i7, kd. auto.
    + exists i6, sd, et. auto.
  - intros it sd' F S'. assert (it = i6) as -> by congruence.
    apply sig_spec_iff in S', V6. destruct S' as [_ ->], V6 as [_ ->]. exact SR.
Qed.

Theorem pac_accept_iff data key dec :
  (exists st, pac_process data key dec = Ok st) <-> accept_spec data key dec.
Proof.
  split; [intros [st E]; apply (pac_process_ok_inv _ _ _ _ E)|].
  intros (HO & HB & (i1 & F1 & O1) & (i10 & ci & F10 & C10) & (i7 & sd7 & F7 & S7) & (i6 & sd & et & F6 & S6 & ET & CK)).
  apply val_sig_spec in S6; [|exact (first_of_bounds _ _ _ _ HB F6)].
  apply val_sig_spec in S7; [|exact (first_of_bounds _ _ _ _ HB F7)].
  assert (V1 : val_kvi i1 = Some (it_idx i1)) by (unfold val_kvi; rewrite O1; reflexivity).
  assert (V10 : val_ci data i10 = Some (it_idx i10, ci)) by (unfold val_ci; rewrite C10; reflexivity).
  destruct (loop_complete data (items_of data dec) (init_state data) eq_refl HB) as [st L].
  { intros s _ it F. destruct s; cbn [sty sdec] in *; congruence. }
  exists st. apply pac_process_ok. split; [exact HO|]. split; [exact L|].
  apply loop_summary in L. destruct L as (_ & G & ZS).
  rewrite <- (zero_sigs_items data dec HO) in ZS.
  apply pac_verify_ok. exists (it_idx i1), sd, sd7, (it_idx i10, ci), et. rewrite ZS.
  split; [exact (found_at _ _ _ _ _ _ F1 V1 (G Kvi))|]. split; [exact (found_at _ _ _ _ _ _ F6 S6 (G Srv))|].
  split; [exact (found_at _ _ _ _ _ _ F7 S7 (G Kdc))|]. split; [exact (found_at _ _ _ _ _ _ F10 V10 (G Ci))|]. auto.
Qed.
