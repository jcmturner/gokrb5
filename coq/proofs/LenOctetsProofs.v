(* Gokrb5.proofs.LenOctetsProofs — the length-octet helpers of asn1tools: exact behaviour of
   MarshalLengthBytes over the whole int64 range, DER minimality, round trip through GetLengthFromASN. *)
From Coq Require Import ZifyBool.
From Gokrb5.lib Require Import Bytes JV.
From Gokrb5.model Require Import DER LenOctets.
From Gokrb5.proofs Require Import DERBasic.

Local Open Scope Z_scope.

Definition M64 : Z := 2 ^ 64.

Lemma i64_id z : - 2 ^ 63 <= z < 2 ^ 63 -> i64 z = z.
Proof. intros. unfold i64. apply sint_id; simpl; lia. Qed.

Lemma i64_range z : - 2 ^ 63 <= i64 z < 2 ^ 63.
Proof. unfold i64. pose proof (sint_range 64 z). simpl in *. lia. Qed.

Lemma i64_mod z : (i64 z) mod M64 = z mod M64.
Proof. unfold i64, M64. apply sint_wrap. lia. Qed.

Lemma i64_congr a b : a mod M64 = b mod M64 -> i64 a = i64 b.
Proof. unfold i64, sint, M64. intros H. rewrite H. reflexivity. Qed.

Lemma eqm_add a a' b b' : a mod M64 = a' mod M64 -> b mod M64 = b' mod M64 -> (a + b) mod M64 = (a' + b') mod M64.
Proof. intros H1 H2. rewrite Zplus_mod, H1, H2, <- Zplus_mod. reflexivity. Qed.

Lemma eqm_mul a a' b b' : a mod M64 = a' mod M64 -> b mod M64 = b' mod M64 -> (a * b) mod M64 = (a' * b') mod M64.
Proof. intros H1 H2. rewrite Zmult_mod, H1, H2, <- Zmult_mod. reflexivity. Qed.

Lemma min_be_zero f acc : min_be f 0 acc = acc.
Proof. destruct f; reflexivity. Qed.

Lemma be_min_min_be : forall f g n acc,
  0 <= n < 2 ^ Z.of_nat f -> n < 256 ^ Z.of_nat g -> be_min f n acc = min_be g n acc.
Proof.
  induction f as [| f IH]; intros g n acc Hf Hg.
  - change (2 ^ Z.of_nat 0) with 1 in Hf. replace n with 0 by lia. rewrite min_be_zero. reflexivity.
  - cbn [be_min]. destruct g as [| g].
    + change (256 ^ Z.of_nat 0) with 1 in Hg. replace n with 0 by lia. reflexivity.
    + cbn [min_be]. destruct (Z.leb_spec n 0); [reflexivity|].
      rewrite pow_succ_nat in Hf, Hg. pose proof (pow_pos_nat 2 f). apply IH; lia.
Qed.

Lemma min_be_codec g n acc : 0 <= n < 256 ^ Z.of_nat g -> min_be g n acc = be_min (zfuel n) n acc.
Proof.
  intros H. symmetry. apply be_min_min_be; [|lia]. pose proof (zfuel_spec n). lia.
Qed.

(* the independent DER length of model/LenOctets.v and the length octets the schema codec writes are the same *)
Theorem der_len_spec_codec l : 0 <= l < 256 ^ 64 -> der_len_spec l = der_len l.
Proof.
  intros Hl. unfold der_len_spec, der_len. destruct (l <? 128); [reflexivity|].
  rewrite (min_be_codec 64) by exact Hl. reflexivity.
Qed.

(* state: p is a power of 256 below 2^56, l = p * q with q > 0 *)
Lemma ml_step f p q b :
  0 < p -> p * 256 < 2 ^ 63 -> 0 < q -> p * q < 2 ^ 63 ->
  ml_loop (S f) (p * q) p b =
    if q / 256 =? 0 then Ok ((q mod 256) :: b)
    else ml_loop f (p * 256 * (q / 256)) (p * 256) ((q mod 256) :: b).
Proof.
  intros Hp Hp' Hq Hlt. cbn [ml_loop]. rewrite (i64_id (p * 256)) by lia.
  destruct (Z.eqb_spec (p * 256) 0); [lia|].
  assert (Hrem : Z.rem (p * q) (p * 256) = p * (q mod 256)).
  { rewrite Z.rem_mod_nonneg by nia. apply Zmult_mod_distr_l. }
  rewrite Hrem, (Z.mul_comm p (q mod 256)), Z.quot_mul by lia. rewrite (Z.mod_small (q mod 256)) by lia.
  replace (p * q - q mod 256 * p) with (p * 256 * (q / 256)) by nia.
  rewrite i64_id by nia.
  destruct (Z.eqb_spec (q / 256) 0) as [E | E]; [rewrite E, Z.mul_0_r; reflexivity|].
  destruct (Z.leb_spec (p * 256 * (q / 256)) 0); [nia | reflexivity].
Qed.

(* from p = 256^k the loop writes the digits of q when they fit below 2^56, and divides by zero (p * 256 wraps
   to 0 at k = 7) when they do not *)
Lemma ml_loop_spec : forall f k q b,
  0 <= k <= 7 -> 8 - k <= Z.of_nat f -> 0 < q -> 256 ^ k * q < 2 ^ 63 ->
  ml_loop f (256 ^ k * q) (256 ^ k) b = if q <? 256 ^ (7 - k) then Ok (min_be f q b) else Panic site_div0.
Proof.
  induction f as [| f IH]; intros k q b Hk Hf Hq Hlt; [lia|].
  destruct (Z.eq_dec k 7) as [-> | Hk7].
  - cbn [ml_loop]. change (i64 (256 ^ 7 * 256)) with 0. change (256 ^ (7 - 7)) with 1.
    destruct (Z.ltb_spec q 1); [lia | reflexivity].
  - assert (Hp : 0 < 256 ^ k) by (apply Z.pow_pos_nonneg; lia).
    assert (Hk1 : 256 ^ k * 256 = 256 ^ (k + 1)) by (rewrite Z.pow_add_r by lia; reflexivity).
    assert (H7 : 256 ^ (7 - k) = 256 * 256 ^ (7 - (k + 1))).
    { replace (7 - k) with (1 + (7 - (k + 1))) by lia. rewrite Z.pow_add_r by lia. reflexivity. }
    assert (Hle : 256 ^ (k + 1) <= 256 ^ 7) by (apply Z.pow_le_mono_r; lia).
    change (256 ^ 7) with (2 ^ 56) in Hle.
    rewrite ml_step by lia. rewrite Hk1, H7. cbn [min_be]. destruct (Z.leb_spec q 0); [lia|].
    destruct (Z.eqb_spec (q / 256) 0) as [E | E].
    + rewrite E, min_be_zero. pose proof (Z.pow_pos_nonneg 256 (7 - (k + 1)) ltac:(lia) ltac:(lia)).
      destruct (Z.ltb_spec q (256 * 256 ^ (7 - (k + 1)))); [reflexivity | lia].
    + rewrite IH by (try lia; rewrite <- Hk1; nia).
      destruct (Z.ltb_spec (q / 256) (256 ^ (7 - (k + 1)))), (Z.ltb_spec q (256 * 256 ^ (7 - (k + 1)))); try reflexivity; lia.
Qed.

Theorem marshal_len_short l : l <= 127 -> marshal_len l = Ok [l mod 256].
Proof. intros. unfold marshal_len. destruct (Z.leb_spec l 127); [reflexivity | lia]. Qed.

Lemma marshal_len_long l : 127 < l < 2 ^ 63 ->
  marshal_len l = if l <? 2 ^ 56 then Ok (((128 + zlen (min_be 9 l [])) mod 256) :: min_be 9 l []) else Panic site_div0.
Proof.
  intros Hl. unfold marshal_len. destruct (Z.leb_spec l 127); [lia|].
  pose proof (ml_loop_spec 9 0 l [] ltac:(lia) ltac:(lia) ltac:(lia)) as H1.
  change (256 ^ 0) with 1 in H1. rewrite Z.mul_1_l in H1. rewrite H1 by lia.
  change (256 ^ (7 - 0)) with (2 ^ 56). destruct (l <? 2 ^ 56); reflexivity.
Qed.

Theorem marshal_len_is_der l : 0 <= l < 2 ^ 56 -> marshal_len l = Ok (der_len_spec l).
Proof.
  intros Hl. unfold der_len_spec. destruct (Z.ltb_spec l 128).
  - rewrite marshal_len_short by lia. rewrite Z.mod_small by lia. reflexivity.
  - rewrite marshal_len_long by lia. replace (l <? 2 ^ 56) with true by lia.
    rewrite (min_be_codec 9), (min_be_codec 64) by lia.
    destruct (be_min_spec (zfuel l) l [] ltac:(pose proof (zfuel_256 l); lia)) as (o & E & _ & _ & _ & HL).
    rewrite E, app_nil_r. specialize (HL 7%nat ltac:(change (256 ^ Z.of_nat 7) with (2 ^ 56); lia)).
    rewrite Z.mod_small by (unfold zlen; lia). reflexivity.
Qed.

Theorem marshal_len_huge_panics l : 2 ^ 56 <= l < 2 ^ 63 -> marshal_len l = Panic site_div0.
Proof. intros Hl. rewrite marshal_len_long by lia. replace (l <? 2 ^ 56) with false by lia. reflexivity. Qed.

(* the fuel of the model's loop is never the reason for an outcome *)
Corollary marshal_len_never_out_of_fuel l : - 2 ^ 63 <= l < 2 ^ 63 -> marshal_len l <> Panic site_fuel.
Proof.
  intros Hl. destruct (Z_le_gt_dec l 127).
  - rewrite marshal_len_short by lia. discriminate.
  - destruct (Z_lt_le_dec l (2 ^ 56)).
    + rewrite marshal_len_is_der by lia. discriminate.
    + rewrite marshal_len_huge_panics by lia. discriminate.
Qed.

Theorem der_len_is_der l : 0 <= l < 256 ^ 64 -> is_der_len l (der_len_spec l).
Proof.
  intros Hl. unfold der_len_spec, is_der_len.
  destruct (Z.ltb_spec l 128); [left; split; [lia | reflexivity]|].
  right. split; [lia|]. rewrite (min_be_codec 64) by exact Hl.
  destruct (be_min_spec (zfuel l) l [] ltac:(pose proof (zfuel_256 l); lia)) as (o & E & Hw & Hz & Hv & HL).
  rewrite E, app_nil_r. exists o. specialize (HL 64%nat ltac:(lia)).
  repeat split; auto; try (unfold zlen; lia).
  - destruct o; [cbn in Hv; lia | rewrite zlen_cons; pose proof (zlen_nonneg o); lia].
  - intros x r ->. exact Hz.
Qed.

(* the long form of der_len_spec below 2^63: at most 8 digits with value l *)
Lemma der_len_spec_long l : 128 <= l < 2 ^ 63 ->
  exists o, der_len_spec l = (128 + zlen o) :: o /\ be_val o = l /\ 0 <= zlen o <= 8.
Proof.
  intros Hl. unfold der_len_spec. replace (l <? 128) with false by lia.
  rewrite (min_be_codec 64) by lia.
  destruct (be_min_spec (zfuel l) l [] ltac:(pose proof (zfuel_256 l); lia)) as (o & E & _ & _ & Hv & HL).
  rewrite E, app_nil_r. exists o. specialize (HL 8%nat ltac:(change (256 ^ Z.of_nat 8) with (2 ^ 64); lia)).
  unfold zlen. repeat split; auto; lia.
Qed.

Lemma gl_loop_mod : forall xs l base,
  (gl_loop xs l base) mod M64 = (l + le_val xs * base) mod M64.
Proof.
  induction xs as [| x r IH]; intros l base; cbn [gl_loop le_val].
  - f_equal. lia.
  - rewrite IH.
    replace (l + (x + 256 * le_val r) * base) with ((l + x * base) + le_val r * (base * 256)) by ring.
    apply eqm_add.
    + rewrite i64_mod. apply eqm_add; [reflexivity | apply i64_mod].
    + apply eqm_mul; [reflexivity | apply i64_mod].
Qed.

Lemma gl_loop_range : forall xs l base, - 2 ^ 63 <= l < 2 ^ 63 -> - 2 ^ 63 <= gl_loop xs l base < 2 ^ 63.
Proof. induction xs; intros; cbn [gl_loop]; [assumption|]. apply IHxs. apply i64_range. Qed.

(* the value returned for ANY length octets: the big-endian value wrapped to a signed 64-bit int *)
Lemma gl_loop_be lb : gl_loop (rev lb) 0 1 = i64 (be_val lb).
Proof.
  rewrite <- (i64_id (gl_loop (rev lb) 0 1)) by (apply gl_loop_range; lia).
  apply i64_congr. rewrite gl_loop_mod.
  rewrite <- be_val_rev, rev_involutive. f_equal. lia.
Qed.

Theorem get_length_general t b1 lb r :
  128 <= b1 -> zlen lb = b1 - 128 ->
  get_length (t :: b1 :: lb ++ r) = Ok (i64 (be_val lb)).
Proof.
  intros Hb Hn. unfold get_length. rewrite gindex_1. cbn [bind].
  destruct (Z.leb_spec b1 127); [lia|].
  unfold gslice.
  assert (Hlen : zlen (t :: b1 :: lb ++ r) = 2 + zlen lb + zlen r) by (rewrite !zlen_cons, zlen_app; lia).
  pose proof (zlen_nonneg r). pose proof (zlen_nonneg lb).
  replace ((0 <=? 2) && (2 <=? 2 + b1 - 128) && (2 + b1 - 128 <=? zlen (t :: b1 :: lb ++ r))) with true.
  2:{ symmetry. rewrite !andb_true_iff, !Z.leb_le. lia. }
  cbn [bind]. unfold slice.
  replace (Z.to_nat (2 + b1 - 128 - 2)) with (length lb) by (unfold zlen in Hn; lia).
  change (skipn (Z.to_nat 2) (t :: b1 :: lb ++ r)) with (lb ++ r).
  rewrite firstn_app_exact. rewrite gl_loop_be. reflexivity.
Qed.

(* Round trip.  GetLengthFromASN takes a whole TLV with a one-octet identifier t: identifier, the length
   octets, then anything (normally the contents). *)
Theorem len_octets_roundtrip_der t l r : 0 <= l < 2 ^ 63 -> get_length (t :: der_len_spec l ++ r) = Ok l.
Proof.
  intros Hl. destruct (Z.ltb_spec l 128).
  - unfold der_len_spec. replace (l <? 128) with true by lia. cbn [app]. unfold get_length. rewrite gindex_1. cbn [bind].
    destruct (Z.leb_spec l 127); [reflexivity | lia].
  - destruct (der_len_spec_long l ltac:(lia)) as (o & -> & Hv & Hz). cbn [app].
    rewrite get_length_general, Hv by lia. rewrite i64_id by lia. reflexivity.
Qed.

Theorem len_octets_roundtrip t l m r :
  0 <= l < 2 ^ 56 -> marshal_len l = Ok m -> get_length (t :: m ++ r) = Ok l.
Proof.
  intros Hl Hm. rewrite marshal_len_is_der in Hm by lia. inversion Hm; subst.
  apply len_octets_roundtrip_der. lia.
Qed.

Theorem len_hdr_bytes_der t l r : 0 <= l < 2 ^ 63 -> len_hdr_bytes (t :: der_len_spec l ++ r) = Ok (zlen (der_len_spec l)).
Proof.
  intros Hl. unfold len_hdr_bytes. destruct (Z.ltb_spec l 128).
  - unfold der_len_spec. replace (l <? 128) with true by lia. cbn [app]. rewrite gindex_1. cbn [bind].
    destruct (Z.leb_spec l 127); [reflexivity | lia].
  - destruct (der_len_spec_long l ltac:(lia)) as (o & -> & _ & Hz). cbn [app]. rewrite gindex_1. cbn [bind].
    destruct (Z.leb_spec (128 + zlen o) 127); [lia|]. rewrite zlen_cons. f_equal. lia.
Qed.

(* both helpers panic on fewer than two octets; GetLengthFromASN panics when the announced length octets
   are not all there *)
Theorem get_length_short_panics b : zlen b < 2 -> get_length b = Panic 2 /\ len_hdr_bytes b = Panic 4.
Proof.
  intros H. destruct b as [| x [| y b]]; [split; reflexivity | split; reflexivity |].
  rewrite !zlen_cons in H. pose proof (zlen_nonneg b). lia.
Qed.

(* AddASNAppTag output parses back: identifier 0x60+tag, then the DER length of the contents *)
Theorem add_app_tag_shape b tag : 0 <= tag < 31 -> zlen b < 2 ^ 63 ->
  add_app_tag b tag = (96 + tag) :: der_len_spec (zlen b) ++ b /\
  get_length (add_app_tag b tag) = Ok (zlen b).
Proof.
  intros Ht Hb. unfold add_app_tag, ident_octets.
  destruct (Z.ltb_spec tag 31); [|lia]. cbn [app].
  split; [reflexivity|]. apply len_octets_roundtrip_der. pose proof (zlen_nonneg b). lia.
Qed.

(* MarshalLengthBytes writes the codec's length octets, AddASNAppTag is the codec's APPLICATION TLV *)
Corollary marshal_len_codec l : 0 <= l < 2 ^ 56 -> marshal_len l = Ok (DER.der_len l).
Proof. intros. rewrite marshal_len_is_der by assumption. rewrite der_len_spec_codec by lia. reflexivity. Qed.

Corollary add_app_tag_codec b tag : 0 <= tag < 31 -> zlen b < 2 ^ 63 ->
  add_app_tag b tag = DER.tlv (DER.ident 1 true tag) b.
Proof.
  intros Ht Hb. destruct (add_app_tag_shape b tag Ht Hb) as [-> _].
  rewrite der_len_spec_codec by (pose proof (zlen_nonneg b); lia). unfold tlv, ident. f_equal; lia.
Qed.

(* hypotheses are satisfiable / concrete instances *)
Example marshal_len_ex : marshal_len 300 = Ok [130; 1; 44] /\ get_length (48 :: [130; 1; 44] ++ [7]) = Ok 300.
Proof. split; reflexivity. Qed.
Example marshal_len_neg_ex : marshal_len (-1) = Ok [255].
Proof. reflexivity. Qed.
Example marshal_len_huge_ex : marshal_len (2 ^ 56) = Panic site_div0.
Proof. reflexivity. Qed.
Example get_length_wrap_ex : get_length (48 :: 137 :: [1; 0; 0; 0; 0; 0; 0; 0; 0]) = Ok 0.
Proof. reflexivity. Qed.
