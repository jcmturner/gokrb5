(* client.ASExchange: bounded, and what every request of it looked like. *)
From Gokrb5.lib Require Import Bytes JV.
From Gokrb5.model Require Import ASExchange.
Open Scope nat_scope.

Definition ts_of (o : asout) : list bool :=
  match o with ASuccess ts _ => ts | AFail _ ts _ => ts | AOutOfFuel => [] end.
Definition assume_of (o : asout) : bool :=
  match o with ASuccess _ a => a | AFail _ _ a => a | AOutOfFuel => false end.

(* the outcome is final: one or two requests more than were sent before *)
Local Ltac ends_here := split; [discriminate|cbn [ts_of]; rewrite !app_length; cbn [length]; lia].

(* at most one request per referral hop plus two for the last exchange *)
Lemma as_bounded : forall fuel script i referral assume sent,
  referral <= 6 -> 7 - referral < fuel ->
  as_exchange fuel script i referral assume sent <> AOutOfFuel /\
  length (ts_of (as_exchange fuel script i referral assume sent)) <= length sent + (6 - referral) + 2.
Proof.
  induction fuel as [|f IH]; intros script i referral assume sent Hr Hf; [lia|].
  cbn [as_exchange]. destruct (script i); try ends_here.
  - destruct (script (S i)); ends_here.
  - destruct (script (S i)); ends_here.
  - destruct (Nat.ltb_spec 5 referral); [ends_here|].
    destruct (IH script (S i) (S referral) assume (sent ++ [assume])) as [A B]; [lia|lia|].
    split; [exact A|]. rewrite app_length in B. cbn [length] in B. lia.
Qed.

(* For every sequence of KDC answers a login's AS exchange ends - with a reply or an error - after at most 8 requests. *)
Theorem as_terminates script assume :
  as_exchange 32 script 0 0 assume [] <> AOutOfFuel /\
  length (ts_of (as_exchange 32 script 0 0 assume [])) <= 8.
Proof. destruct (as_bounded 32 script 0 0 assume []) as [A B]; [lia|lia|]. split; [exact A|]. cbn [length] in B. lia. Qed.

(* the k-th exchange of the run (offset i, flags fl): a pre-authentication demand answered by one retry that carries a
   timestamp and is the last request; or a referral followed by a request with the client's standing assumption *)
Definition as_step_ok (script : nat -> asresp) (i : nat) (a0 : bool) (fl : list bool) (k : nat) : Prop :=
  ((script (i + k) = ANeedPreauth \/ script (i + k) = APreauthFailed) /\ nth (S k) fl false = true /\ S (S k) = length fl)
  \/ (script (i + k) = AWrongRealm /\ nth (S k) fl true = a0).

Definition as_result_ok (script : nat -> asresp) (i : nat) (fl : list bool) (o : asout) : Prop :=
  match o with
  | ASuccess _ _ => script (i + (length fl - 1)) = AOk
  | AFail _ _ _ => script (i + (length fl - 1)) <> AOk
  | AOutOfFuel => False
  end.

Lemma as_result_ok_shift script i b c fl o :
  as_result_ok script (S i) (c :: fl) o -> as_result_ok script i (b :: c :: fl) o.
Proof.
  unfold as_result_ok. cbn [length].
  replace (i + (S (S (length fl)) - 1)) with (S i + (S (length fl) - 1)) by lia. exact (fun H => H).
Qed.

Lemma as_step_ok_shift script i a0 b fl k : as_step_ok script (S i) a0 fl k -> as_step_ok script i a0 (b :: fl) (S k).
Proof.
  unfold as_step_ok. replace (i + S k) with (S i + k) by lia. cbn [nth length].
  intros [(H1 & H2 & H3)|H]; [left|right; exact H]. split; [exact H1|]. split; [exact H2|lia].
Qed.

Definition as_traced (script : nat -> asresp) (i : nat) (assume : bool) (sent : list bool) (o : asout) : Prop :=
  exists ext,
    ts_of o = sent ++ assume :: ext /\
    as_result_ok script i (assume :: ext) o /\
    (forall k, k < length ext -> as_step_ok script i assume (assume :: ext) k) /\
    (assume = true -> assume_of o = true).

Lemma as_trace : forall fuel script i referral assume sent,
  as_exchange fuel script i referral assume sent <> AOutOfFuel ->
  as_traced script i assume sent (as_exchange fuel script i referral assume sent).
Proof.
  induction fuel as [|f IH]; intros script i referral assume sent Hne; [cbn in Hne; congruence|].
  cbn [as_exchange] in *.
  (* the answer to this request ends the exchange *)
  assert (Simple : forall o, ts_of o = sent ++ [assume] -> assume_of o = assume ->
            match o with ASuccess _ _ => script i = AOk | AFail _ _ _ => script i <> AOk | AOutOfFuel => False end ->
            as_traced script i assume sent o).
  { intros o Et Ea R. exists []. split; [exact Et|]. split; [|split; [intros k Hk; cbn in Hk; lia|congruence]].
    unfold as_result_ok. cbn [length]. replace (i + (1 - 1)) with i by lia. exact R. }
  (* a demand for pre-authentication: one retry with a timestamp, whose answer ends the exchange *)
  assert (Retry : forall o, script i = ANeedPreauth \/ script i = APreauthFailed ->
            ts_of o = (sent ++ [assume]) ++ [true] -> assume_of o = true ->
            match o with ASuccess _ _ => script (S i) = AOk | AFail _ _ _ => script (S i) <> AOk | AOutOfFuel => False end ->
            as_traced script i assume sent o).
  { intros o Hs Et Ea R. exists [true]. split; [rewrite Et, <- app_assoc; reflexivity|]. split; [|split; [|intros _; exact Ea]].
    - unfold as_result_ok. cbn [length]. replace (i + (2 - 1)) with (S i) by lia. exact R.
    - intros k Hk. cbn [length] in Hk. assert (k = 0) as -> by lia. left. rewrite Nat.add_0_r. auto. }
  destruct (script i) eqn:Es; try (apply Simple; [reflexivity|reflexivity|cbn; congruence]).
  - destruct (script (S i)) eqn:E2; (apply Retry; [auto|reflexivity|reflexivity|cbn; congruence]).
  - destruct (script (S i)) eqn:E2; (apply Retry; [auto|reflexivity|reflexivity|cbn; congruence]).
  - destruct (5 <? referral); [apply Simple; [reflexivity|reflexivity|cbn; congruence]|].
    (* a referral: the same request goes to the next realm *)
    destruct (IH script (S i) (S referral) assume (sent ++ [assume]) Hne) as (ext & A & B & C & D).
    exists (assume :: ext). split; [rewrite A, <- app_assoc; reflexivity|]. split; [apply as_result_ok_shift, B|].
    split; [|exact D]. intros [|k] Hk.
    + right. rewrite Nat.add_0_r. auto.
    + cbn [length] in Hk. apply as_step_ok_shift, C. lia.
Qed.

(* From the start of a login: the first request carries a timestamp exactly when the client already assumes
   pre-authentication; every later request follows a pre-authentication demand (then it carries a timestamp and is the
   last one) or a referral (then it carries what the first one carried); success is the KDC's AS-REP to the last
   request; a client that assumed pre-authentication still does afterwards. *)
Theorem as_trace_fresh script assume :
  let o := as_exchange 32 script 0 0 assume [] in
  exists ext, ts_of o = assume :: ext /\ as_result_ok script 0 (assume :: ext) o /\
              (forall k, k < length ext -> as_step_ok script 0 assume (assume :: ext) k) /\
              (assume = true -> assume_of o = true).
Proof.
  cbn zeta. destruct (as_terminates script assume) as [Hne _].
  destruct (as_trace 32 script 0 0 assume [] Hne) as (ext & A & B & C & D). exists ext. auto.
Qed.

(* a demand for pre-authentication is answered with a timestamp, once *)
Corollary preauth_demand_answered script assume k :
  let fl := ts_of (as_exchange 32 script 0 0 assume []) in
  S k < length fl -> (script k = ANeedPreauth \/ script k = APreauthFailed) ->
  nth (S k) fl false = true /\ S (S k) = length fl.
Proof.
  cbn zeta. destruct (as_trace_fresh script assume) as (ext & A & _ & C & _). cbn zeta in A. rewrite A.
  intros Hk Hs. cbn [length] in Hk. assert (k < length ext) as Hk' by lia.
  destruct (C k Hk') as [(C1 & C2 & C3)|(C1 & _)]; [split; assumption|].
  cbn in C1. destruct Hs as [Hs|Hs]; congruence.
Qed.

Example as_examples :
  as_exchange 32 (script_of [ANeedPreauth] AOk) 0 0 false [] = ASuccess [false; true] true /\
  as_exchange 32 (script_of [AWrongRealm; ANeedPreauth] AOk) 0 0 false [] = ASuccess [false; false; true] true /\
  as_exchange 32 (script_of [] ANeedPreauth) 0 0 false [] = AFail 1 [false; true] true /\
  ts_of (as_exchange 32 (script_of [] AWrongRealm) 0 0 true []) = repeat true 7.
Proof. repeat split. Qed.
