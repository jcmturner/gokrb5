(* Gokrb5.proofs.Krb5ConfResolve — Config.ResolveRealm returns the most specific mapping.

   The code tries the whole name, then for i = 2 .. Count(name, ".")+1 the key "." + last(SplitN(name, ".", i)).
   [dot_suffixes] is the independent description of those keys: the suffixes of the name that begin at a
   dot, longest first. *)
From Coq Require Import String Sorted.
From Gokrb5.lib Require Import Bytes GoString.
From Gokrb5.model Require Import Krb5Conf.
Open Scope Z_scope.

Fixpoint dot_suffixes (s : bytes) : list bytes :=
  match s with
  | [] => []
  | c :: t => if c =? 46 then (c :: t) :: dot_suffixes t else dot_suffixes t
  end.

Definition is_dot_suffix (s h : bytes) : Prop := exists p t, h = p ++ s /\ s = 46 :: t.

Fixpoint first_mapped (m : dmap) (l : list bytes) : bytes :=
  match l with
  | [] => []
  | s :: r => match lookup s m with Some x => x | None => first_mapped m r end
  end.

Lemma dot_suffixes_nodot a : ~ In 46 a -> forall b, dot_suffixes (a ++ b) = dot_suffixes b.
Proof.
  induction a as [|x a IH]; intros H b; [reflexivity|]. cbn.
  destruct (Z.eqb_spec x 46) as [->|_]; [exfalso; apply H; left; reflexivity|].
  apply IH. intros E; apply H; right; exact E.
Qed.

Lemma dot_suffixes_cut_some s a b : cut 46 s = Some (a, b) -> dot_suffixes s = (46 :: b) :: dot_suffixes b.
Proof.
  intros H. destruct (cut_spec _ _ _ _ H) as [-> Hn].
  rewrite dot_suffixes_nodot by exact Hn. cbn. reflexivity.
Qed.

Lemma dot_suffixes_cut_none s : cut 46 s = None -> dot_suffixes s = [].
Proof.
  intros H. apply cut_none in H. rewrite <- (app_nil_r s). rewrite dot_suffixes_nodot by exact H. reflexivity.
Qed.

Lemma count_dot_suffixes s : count_byte 46 s = length (dot_suffixes s).
Proof.
  unfold count_byte. induction s as [|c t IH]; [reflexivity|]. cbn [filter dot_suffixes].
  rewrite (Z.eqb_sym 46 c). destruct (c =? 46); cbn [length]; now rewrite IH.
Qed.

Lemma after_cuts_nth k : forall s, (k < length (dot_suffixes s))%nat ->
  46 :: after_cuts 46 (S k) s = nth k (dot_suffixes s) [].
Proof.
  induction k as [|k IH]; intros s Hk.
  - cbn [after_cuts]. destruct (cut 46 s) as [[a b]|] eqn:E.
    + rewrite (dot_suffixes_cut_some _ _ _ E). reflexivity.
    + rewrite (dot_suffixes_cut_none _ E) in Hk. cbn in Hk; lia.
  - rewrite after_cuts_S.
    destruct (cut 46 s) as [[a b]|] eqn:E.
    + rewrite (dot_suffixes_cut_some _ _ _ E) in *. cbn [nth]. apply IH. cbn in Hk; lia.
    + rewrite (dot_suffixes_cut_none _ E) in Hk. cbn in Hk; lia.
Qed.

Lemma rr_loop_spec m h : forall todo k, (k + todo = length (dot_suffixes h))%nat ->
  rr_loop m h (S (S k)) todo = Ok (first_mapped m (skipn k (dot_suffixes h))).
Proof.
  induction todo as [|t IH]; intros k Hk.
  - cbn. rewrite skipn_all2 by lia. reflexivity.
  - cbn [rr_loop].
    rewrite (gindex_last 50 (splitn 46 (S (S k)) h) ([] : bytes)) by apply splitn_nonempty.
    cbn [bind]. rewrite splitn_last.
    rewrite (skipn_nth (dot_suffixes h) k ([] : bytes)) by lia. cbn [first_mapped].
    rewrite after_cuts_nth by lia.
    destruct (lookup (nth k (dot_suffixes h) []) m); [reflexivity|].
    apply IH. lia.
Qed.

(* the code computes: exact mapping, else the first mapped dotted suffix, else "" *)
Lemma resolve_realm_eq m name :
  resolve_realm m name =
  Ok (let h := trim_suffix name [46] in
      match lookup h m with Some r => r | None => first_mapped m (dot_suffixes h) end).
Proof.
  unfold resolve_realm. cbv zeta. destruct (lookup (trim_suffix name [46]) m); [reflexivity|].
  rewrite count_dot_suffixes. rewrite (rr_loop_spec m _ _ 0%nat) by lia. reflexivity.
Qed.

Lemma resolve_realm_never_panics m name : is_ok (resolve_realm m name) = true.
Proof. now rewrite resolve_realm_eq. Qed.

Lemma dot_suffixes_in s h : In s (dot_suffixes h) <-> is_dot_suffix s h.
Proof.
  unfold is_dot_suffix. induction h as [|c t IH]; cbn.
  - split; [tauto|]. intros (p & u & E & ->). destruct p; discriminate.
  - destruct (Z.eqb_spec c 46) as [->|Hc]; cbn.
    + split.
      * intros [<-|H]; [exists [], t; auto|].
        apply IH in H. destruct H as (p & u & -> & ->). exists (46 :: p), u; auto.
      * intros (p & u & E & ->). destruct p as [|x p]; cbn in E.
        -- left; now rewrite E.
        -- right. apply IH. inversion E; subst. exists p, u; auto.
    + split.
      * intros H. apply IH in H. destruct H as (p & u & -> & ->). exists (c :: p), u; auto.
      * intros (p & u & E & ->). destruct p as [|x p]; cbn in E.
        -- inversion E; congruence.
        -- apply IH. inversion E; subst. exists p, u; auto.
Qed.

Lemma dot_suffixes_len s h : In s (dot_suffixes h) -> (length s <= length h)%nat.
Proof.
  intros H. apply dot_suffixes_in in H. destruct H as (p & u & -> & _). rewrite app_length; lia.
Qed.

Lemma dot_suffixes_sorted h : StronglySorted (fun a b => (length a > length b)%nat) (dot_suffixes h).
Proof.
  induction h as [|c t IH]; cbn; [constructor|].
  destruct (c =? 46); [|exact IH]. constructor; [exact IH|].
  apply Forall_forall. intros x Hx. apply dot_suffixes_len in Hx. cbn; lia.
Qed.

Lemma first_mapped_spec m l : StronglySorted (fun a b => (length a > length b)%nat) l ->
  (exists s, In s l /\ lookup s m = Some (first_mapped m l) /\
             forall s', In s' l -> (length s' > length s)%nat -> lookup s' m = None)
  \/ ((forall s, In s l -> lookup s m = None) /\ first_mapped m l = []).
Proof.
  induction 1 as [|x l Hs IH Hx]; cbn [first_mapped].
  - right. split; [intros s []|reflexivity].
  - destruct (lookup x m) as [r|] eqn:E.
    + left. exists x. split; [left; reflexivity|]. split; [exact E|].
      intros s' [<-|Hin] Hlen; [lia|].
      rewrite Forall_forall in Hx. specialize (Hx _ Hin). lia.
    + destruct IH as [(s & Hin & Hl & Hmax)|[Hnone Hr]].
      * left. exists s. split; [right; exact Hin|]. split; [exact Hl|].
        intros s' [<-|Hin'] Hlen; [exact E|]. now apply Hmax.
      * right. split; [|exact Hr]. intros s [<-|Hin]; [exact E|now apply Hnone].
Qed.

(* ResolveRealm returns the exact mapping if there is one, else the mapping of the longest suffix of the
   name that begins at a dot and is mapped, else "" — for every mapping and every name (a single trailing
   dot of the name is dropped first). *)
Theorem resolve_realm_most_specific : forall (m : dmap) (name : bytes),
  let h := trim_suffix name [46] in
  exists r, resolve_realm m name = Ok r /\
  match lookup h m with
  | Some x => r = x
  | None =>
    (exists s, is_dot_suffix s h /\ lookup s m = Some r /\
               forall s', is_dot_suffix s' h -> (length s' > length s)%nat -> lookup s' m = None)
    \/ ((forall s, is_dot_suffix s h -> lookup s m = None) /\ r = [])
  end.
Proof.
  intros m name h. rewrite resolve_realm_eq. fold h. cbv zeta.
  eexists; split; [reflexivity|].
  destruct (lookup h m) as [x|] eqn:E; [reflexivity|].
  destruct (first_mapped_spec m _ (dot_suffixes_sorted h)) as [(s & Hin & Hl & Hmax)|[Hnone Hr]].
  - left. exists s. split; [now apply dot_suffixes_in|]. split; [exact Hl|].
    intros s' Hs'. apply Hmax. now apply dot_suffixes_in.
  - right. split; [|exact Hr]. intros s Hs. apply Hnone. now apply dot_suffixes_in.
Qed.

(* the hypotheses are satisfiable: host.sub.example.com with mappings for .example.com, .sub.example.com
   and a bare sub.example.com resolves to the longer dotted suffix; the bare key only matches itself *)
Example resolve_example :
  let m := [(bs ".example.com", bs "EX"); (bs "sub.example.com", bs "BARE"); (bs ".sub.example.com", bs "SUB")] in
  resolve_realm m (bs "host.sub.example.com") = Ok (bs "SUB") /\
  resolve_realm m (bs "sub.example.com.") = Ok (bs "BARE") /\
  resolve_realm m (bs "other.example.com") = Ok (bs "EX") /\
  resolve_realm m (bs "example.com") = Ok [] /\
  is_dot_suffix (bs ".sub.example.com") (bs "host.sub.example.com").
Proof.
  cbv zeta. repeat split; try (vm_compute; reflexivity).
  exists (bs "host"), (bs "sub.example.com"). split; reflexivity.
Qed.
