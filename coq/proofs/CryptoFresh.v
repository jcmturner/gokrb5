(* "Two encryptions of the same plaintext produce different ciphertexts because each uses a fresh random
   confounder": for the AES profiles, encryption under one key and usage is injective in the confounder - two
   different confounders never give the same ciphertext, for every key, usage and plaintext.  (What "fresh" means -
   that the confounders the library draws differ - is the random source's business and is exercised by the stream.) *)
From Gokrb5.lib Require Import Bytes JV.
From Gokrb5.model Require Import Crypto.
From Gokrb5.proofs Require Import CryptoRoundTrip.

Section Fresh.
  Variables (et : Z) (key : bytes) (usage : Z) (c1 c2 msg ct1 ct2 : bytes).
  Hypothesis Hl1 : length c1 = 16%nat.
  Hypothesis Hl2 : length c2 = 16%nat.
  Hypothesis Wk : wf_bytes key.
  Hypothesis W1 : wf_bytes c1.
  Hypothesis W2 : wf_bytes c2.
  Hypothesis Wm : wf_bytes msg.

  (* equal ciphertexts have equal CTS parts, which CTS decryption opens to confounder and message *)
  Theorem aes_confounder_injective :
    aes_family et ->
    encrypt_with et key usage c1 msg = Ok ct1 -> encrypt_with et key usage c2 msg = Ok ct2 ->
    ct1 = ct2 -> c1 = c2.
  Proof.
    intros Hf E1 E2 E.
    destruct (aes_sealed _ _ _ _ _ _ Hf Hl1 Wk W1 Wm E1) as (ke & b1 & ih1 & _ & Ek1 & -> & L1 & _ & D1 & _).
    destruct (aes_sealed _ _ _ _ _ _ Hf Hl2 Wk W2 Wm E2) as (ke' & b2 & ih2 & _ & Ek2 & -> & L2 & _ & D2 & _).
    rewrite Ek1 in Ek2. apply ok_inj in Ek2. subst ke'.
    apply app_inv_head_len in E; [|congruence]. destruct E as [<- _].
    rewrite D1 in D2. apply ok_inj in D2. apply app_inv_tail in D2. exact D2.
  Qed.

  Theorem aes_sha1_confounder_injective :
    et_family et = Some FAesSha1 ->
    encrypt_with et key usage c1 msg = Ok ct1 -> encrypt_with et key usage c2 msg = Ok ct2 ->
    ct1 = ct2 -> c1 = c2.
  Proof. intros Hf. apply aes_confounder_injective. left. exact Hf. Qed.

  Theorem aes_sha2_confounder_injective :
    et_family et = Some FAesSha2 ->
    encrypt_with et key usage c1 msg = Ok ct1 -> encrypt_with et key usage c2 msg = Ok ct2 ->
    ct1 = ct2 -> c1 = c2.
  Proof. intros Hf. apply aes_confounder_injective. right. exact Hf. Qed.
End Fresh.
