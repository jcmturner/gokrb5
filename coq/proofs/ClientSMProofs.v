(* Tickets served are the KDC's and still valid; referral chains are bounded. *)
From Gokrb5.lib Require Import Bytes JV.
From Gokrb5.model Require Import ClientSM.

Definition cache_from_log (s : cstate) : Prop :=
  forall e, In e (cs_cache s) -> In (ce_tid e, ce_spn e) (k_log (cs_kdc s)).

Definition tid_of (a : action) : Z := match a with CacheHit t | Renewed t | Fresh t => t end.

Lemma issue_log k spn now e k' :
  issue k spn now = (e, k') ->
  ce_spn e = spn /\ k_log k' = (ce_tid e, spn) :: k_log k.
Proof. unfold issue. intros H. injection H as <- <-. cbn. auto. Qed.

Lemma store_in e c x : In x (store e c) -> x = e \/ In x c.
Proof. unfold store. intros [<-|H]; [left; reflexivity|right]. apply filter_In in H. apply H. Qed.

Lemma lookup_some spn c e : lookup spn c = Some e -> In e c /\ ce_spn e = spn.
Proof. unfold lookup. intros H. apply find_some in H. destruct H as [H1 H2]. apply Z.eqb_eq in H2. auto. Qed.

Lemma get_ticket_cases s spn now a s' :
  get_ticket s spn now = (a, s') ->
  (exists e, In e (cs_cache s) /\ ce_spn e = spn /\ ce_start e < now < ce_end e /\ a = CacheHit (ce_tid e) /\ s' = s) \/
  (exists e' k', ce_spn e' = spn /\ k_log k' = (ce_tid e', spn) :: k_log (cs_kdc s) /\
                 s' = mkCS (store e' (cs_cache s)) k' /\ (a = Renewed (ce_tid e') \/ a = Fresh (ce_tid e'))).
Proof.
  unfold get_ticket. destruct (issue (cs_kdc s) spn now) as [e' k'] eqn:E. destruct (issue_log _ _ _ _ _ E) as [Es El].
  destruct (lookup spn (cs_cache s)) as [e|] eqn:L; [|intros H; injection H as <- <-; right; exists e', k'; auto].
  destruct ((ce_start e <? now) && (now <? ce_end e)) eqn:V.
  - intros H. injection H as <- <-. left. exists e. apply lookup_some in L. apply andb_true_iff in V.
    rewrite !Z.ltb_lt in V. tauto.
  - destruct (now <? ce_renew e); intros H; injection H as <- <-; right; exists e', k'; auto.
Qed.

(* ---- served from the cache only while inside the validity period ---- *)
Theorem cache_serves_only_valid s spn now tid s' :
  get_ticket s spn now = (CacheHit tid, s') ->
  exists e, In e (cs_cache s) /\ ce_spn e = spn /\ ce_tid e = tid /\ ce_start e < now < ce_end e /\ s' = s.
Proof.
  intros H. destruct (get_ticket_cases _ _ _ _ _ H) as [(e & Hin & Hs & Hv & Ha & ->)|(e' & k' & _ & _ & _ & [Ha|Ha])];
    try discriminate.
  injection Ha as ->. exists e. auto.
Qed.

(* ---- every ticket returned was issued by the KDC for the SPN asked for ---- *)
Theorem get_ticket_from_log s spn now a s' :
  cache_from_log s -> get_ticket s spn now = (a, s') ->
  In (tid_of a, spn) (k_log (cs_kdc s')) /\ cache_from_log s'.
Proof.
  intros Inv H. destruct (get_ticket_cases _ _ _ _ _ H) as [(e & Hin & <- & _ & -> & ->)|(e' & k' & Es & El & -> & Ha)].
  - split; [exact (Inv e Hin)|exact Inv].
  - cbn [cs_kdc]. rewrite El. split; [left; destruct Ha as [->| ->]; reflexivity|].
    intros x Hx. cbn [cs_cache cs_kdc] in *. rewrite El. apply store_in in Hx. destruct Hx as [->|Hx].
    + left. now rewrite Es.
    + right. apply Inv. exact Hx.
Qed.

Fixpoint cstates (s : cstate) (ops : list cop) : list (cop * option action * cstate) :=
  match ops with
  | [] => []
  | o :: r => let '(a, s') := cstep s o in (o, a, s') :: cstates s' r
  end.

Theorem service_ticket_from_log : forall ops s,
  cache_from_log s ->
  forall o a s', In (o, Some a, s') (cstates s ops) ->
  exists spn now, o = Get spn now /\ In (tid_of a, spn) (k_log (cs_kdc s')).
Proof.
  induction ops as [|o ops IH]; intros s Inv o' a s' Hin; [destruct Hin|].
  cbn [cstates] in Hin. destruct o as [spn now|].
  - cbn [cstep] in Hin. destruct (get_ticket s spn now) as [a0 s0] eqn:E.
    destruct (get_ticket_from_log s spn now a0 s0 Inv E) as [Hlog Inv'].
    destruct Hin as [H|H].
    + injection H as <- <- <-. exists spn, now. auto.
    + eapply IH; eauto.
  - cbn [cstep] in Hin. destruct Hin as [H|H]; [discriminate|].
    eapply IH; [|exact H]. intros e [].
Qed.

Theorem cache_hits_valid_over_histories : forall ops s o tid s',
  In (o, Some (CacheHit tid), s') (cstates s ops) ->
  exists spn now start end_, o = Get spn now /\ start < now < end_.
Proof.
  induction ops as [|o ops IH]; intros s o' tid s' Hin; [destruct Hin|].
  cbn [cstates] in Hin. destruct o as [spn now|].
  - cbn [cstep] in Hin. destruct (get_ticket s spn now) as [a0 s0] eqn:E.
    destruct Hin as [H|H].
    + injection H as <- -> <-. destruct (cache_serves_only_valid _ _ _ _ _ E) as (e & _ & _ & _ & Hv & _).
      exists spn, now, (ce_start e), (ce_end e). auto.
    + eapply IH; eauto.
  - cbn [cstep] in Hin. destruct Hin as [H|H]; [discriminate|]. eapply IH; eauto.
Qed.

(* ---- referral chains: at most 7 TGS requests per call, for every KDC behaviour ---- *)
Lemma tgs_exchange_bound : forall fuel refers i referral,
  (referral <= 6)%nat -> (7 - referral < fuel)%nat ->
  (snd (tgs_exchange fuel refers i referral) <= i + (7 - referral))%nat.
Proof.
  induction fuel as [|f IH]; intros refers i referral Hr Hf; [lia|].
  cbn [tgs_exchange]. destruct (refers i).
  - destruct (Nat.ltb_spec 5 referral).
    + cbn [snd]. lia.
    + specialize (IH refers (S i) (S referral) ltac:(lia) ltac:(lia)). lia.
  - cbn [snd]. lia.
Qed.

Theorem referrals_bounded refers :
  (snd (tgs_exchange 64 refers 0 0) <= 7)%nat.
Proof. pose proof (tgs_exchange_bound 64 refers 0 0). lia. Qed.

(* a chain of n referrals succeeds iff n <= 6 *)
Example referral_chain_examples :
  tgs_exchange 64 (fun i => (i <? 6)%nat) 0 0 = (true, 7%nat) /\
  tgs_exchange 64 (fun i => (i <? 7)%nat) 0 0 = (false, 7%nat) /\
  tgs_exchange 64 (fun _ => true) 0 0 = (false, 7%nat).
Proof. repeat split. Qed.

(* ---- request fields follow the configuration ---- *)
Theorem asreq_fields c now :
  f_till (new_as_req c now) = now + c_ticket_life c /\
  f_rtime (new_as_req c now) = (if c_renew_life c =? 0 then None else Some (now + c_renew_life c)) /\
  f_etypes (new_as_req c now) = c_etypes c.
Proof. repeat split. Qed.

Lemma insert_flag_in x y l : In y (insert_flag x l) <-> y = x \/ In y l.
Proof.
  induction l as [|z l IH]; cbn [insert_flag In]; [intuition|].
  destruct (Z.ltb_spec x z); cbn [In]; [intuition|].
  destruct (Z.eqb_spec x z); cbn [In]; [subst; intuition|]. rewrite IH. intuition.
Qed.

Theorem asreq_flags c now f :
  In f (f_flags (new_as_req c now)) <->
  In f (c_default_opts c) \/ (f = 1 /\ c_forwardable c = true) \/ (f = 15 /\ c_canonicalize c = true) \/
  (f = 3 /\ c_proxiable c = true) \/ (f = 8 /\ c_renew_life c <> 0).
Proof.
  unfold new_as_req. cbn [f_flags].
  assert (forall l, In f (fold_right insert_flag [] l) <-> In f l) as F0.
  { induction l as [|x l IH]; cbn; [tauto|]. rewrite insert_flag_in, IH. intuition. }
  destruct (c_forwardable c), (c_canonicalize c), (c_proxiable c), (Z.eqb_spec (c_renew_life c) 0);
    rewrite ?insert_flag_in, F0; intuition congruence.
Qed.
