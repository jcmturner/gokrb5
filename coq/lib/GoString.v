(* Gokrb5.lib.GoString — the functions of Go's strings / strconv / time / encoding/hex packages that
   v8/config uses, on byte strings (Go string = bytes).

   Domain.  TrimSpace, Fields and ToLower are Unicode-aware in Go; the definitions here agree with Go on
   strings whose bytes are all < 128 (ASCII) — [is_ascii] — and the model entry points answer Unmodelled on
   anything else.  Everything byte-oriented (Split, SplitN, Contains, Count, HasPrefix, HasSuffix,
   TrimSuffix, IndexAny with ASCII chars, Replace) is exact on all byte strings.
   time.ParseDuration is exact on strings without '.', without a leading sign and without non-ASCII bytes
   (so without the two micro-second spellings); outside that it answers DUnmodelled. *)
From Coq Require Import String Ascii.
From Gokrb5.lib Require Import Bytes.
Open Scope Z_scope.

Fixpoint bs (s : string) : bytes :=
  match s with
  | String a r => Z.of_N (N_of_ascii a) :: bs r
  | EmptyString => []
  end.
Arguments bs s%string.

Definition is_ascii (s : bytes) : bool := forallb (fun b => (0 <=? b) && (b <? 128)) s.

(* unicode.IsSpace restricted to ASCII: '\t' '\n' '\v' '\f' '\r' ' ' *)
Definition is_space (b : Z) : bool :=
  (b =? 9) || (b =? 10) || (b =? 11) || (b =? 12) || (b =? 13) || (b =? 32).
(* regexp \s = [\t\n\f\r ] (no vertical tab) *)
Definition is_re_space (b : Z) : bool :=
  (b =? 9) || (b =? 10) || (b =? 12) || (b =? 13) || (b =? 32).
Definition is_digit (b : Z) : bool := (48 <=? b) && (b <=? 57).

Fixpoint drop_while (p : Z -> bool) (s : bytes) : bytes :=
  match s with
  | c :: r => if p c then drop_while p r else s
  | [] => []
  end.
Fixpoint take_until (p : Z -> bool) (s : bytes) : bytes :=
  match s with
  | c :: r => if p c then [] else c :: take_until p r
  | [] => []
  end.

Definition trim_left (s : bytes) : bytes := drop_while is_space s.
Definition trim_right (s : bytes) : bytes := rev (drop_while is_space (rev s)).
Definition trim_space (s : bytes) : bytes := trim_right (trim_left s).

Definition contains_byte (c : Z) (s : bytes) : bool := existsb (Z.eqb c) s.
Definition count_byte (c : Z) (s : bytes) : nat := length (filter (Z.eqb c) s).

Fixpoint has_prefix (p s : bytes) : bool :=
  match p, s with
  | [], _ => true
  | x :: p', y :: s' => (x =? y) && has_prefix p' s'
  | _ :: _, [] => false
  end.
Definition has_suffix (p s : bytes) : bool := has_prefix (rev p) (rev s).
Fixpoint contains (p s : bytes) : bool :=
  has_prefix p s || match s with [] => false | _ :: r => contains p r end.
Definition trim_suffix (s p : bytes) : bytes :=
  if has_suffix p s then firstn (length s - length p) s else s.

(* strings.Cut on a one-byte separator *)
Fixpoint cut (c : Z) (s : bytes) : option (bytes * bytes) :=
  match s with
  | [] => None
  | x :: r => if x =? c then Some ([], r)
              else match cut c r with Some (a, b) => Some (x :: a, b) | None => None end
  end.

(* strings.Split(s, sep) with a one-byte separator: never empty *)
Fixpoint split_byte (c : Z) (s : bytes) : list bytes :=
  match s with
  | [] => [[]]
  | x :: r => if x =? c then [] :: split_byte c r
              else match split_byte c r with h :: t => (x :: h) :: t | [] => [[x]] end
  end.

(* strings.SplitN(s, sep, n) for n >= 0 (n = 0 gives nil) *)
Fixpoint splitn (c : Z) (n : nat) (s : bytes) : list bytes :=
  match n with
  | O => []
  | S O => [s]
  | S n' => match cut c s with None => [s] | Some (a, b) => a :: splitn c n' b end
  end.

(* the remainder of s after its k-th separator (s itself when there are fewer) = last element of SplitN(s, sep, k+1) *)
Fixpoint after_cuts (c : Z) (k : nat) (s : bytes) : bytes :=
  match k with
  | O => s
  | S k' => match cut c s with Some (_, b) => after_cuts c k' b | None => s end
  end.

Definition lower_byte (b : Z) : Z := if (65 <=? b) && (b <=? 90) then b + 32 else b.
Definition to_lower (s : bytes) : bytes := map lower_byte s.

(* strings.Fields / strings.FieldsFunc *)
Fixpoint fields_aux (p : Z -> bool) (s : bytes) (cur : bytes) : list bytes :=
  match s with
  | [] => match cur with [] => [] | _ => [rev cur] end
  | x :: r => if p x then match cur with [] => fields_aux p r [] | _ => rev cur :: fields_aux p r [] end
              else fields_aux p r (x :: cur)
  end.
Definition fields_by (p : Z -> bool) (s : bytes) : list bytes := fields_aux p s [].
Definition fields (s : bytes) : list bytes := fields_by is_space s.

(* strings.Replace(s, " ", "", -1) and strings.Replace(s, "0x", "", -1) *)
Definition remove_byte (c : Z) (s : bytes) : bytes := filter (fun b => negb (b =? c)) s.
Fixpoint remove_pair (a b : Z) (s : bytes) : bytes :=
  match s with
  | x :: r => match r with
              | y :: r' => if (x =? a) && (y =? b) then remove_pair a b r' else x :: remove_pair a b r
              | [] => [x]
              end
  | [] => []
  end.

Fixpoint digits_val (acc : Z) (s : bytes) : Z :=
  match s with [] => acc | c :: r => digits_val (acc * 10 + (c - 48)) r end.

(* strconv.ParseUint(s, 10, bits) *)
Definition parse_uint (bits : Z) (s : bytes) : option Z :=
  match s with
  | [] => None
  | _ => if forallb is_digit s then
           let v := digits_val 0 s in if v <? 2 ^ bits then Some v else None
         else None
  end.

(* strconv.ParseInt(s, 10, bits) *)
Definition parse_int (bits : Z) (s : bytes) : option Z :=
  match s with
  | [] => None
  | c :: r =>
    let '(neg, d) := if c =? 43 then (false, r) else if c =? 45 then (true, r) else (false, s) in
    match d with
    | [] => None
    | _ => if forallb is_digit d then
             let v := digits_val 0 d in
             if neg then (if v <=? 2 ^ (bits - 1) then Some (- v) else None)
             else (if v <? 2 ^ (bits - 1) then Some v else None)
           else None
    end
  end.

(* strconv.ParseBool *)
Definition true_spellings : list bytes := Eval cbv in [bs "1"; bs "t"; bs "T"; bs "TRUE"; bs "true"; bs "True"].
Definition false_spellings : list bytes := Eval cbv in [bs "0"; bs "f"; bs "F"; bs "FALSE"; bs "false"; bs "False"].
Definition parse_bool_go (s : bytes) : option bool :=
  if existsb (beq_bytes s) true_spellings then Some true
  else if existsb (beq_bytes s) false_spellings then Some false
  else None.

(* encoding/hex.DecodeString *)
Definition hex_digit (c : Z) : option Z :=
  if (48 <=? c) && (c <=? 57) then Some (c - 48)
  else if (97 <=? c) && (c <=? 102) then Some (c - 87)
  else if (65 <=? c) && (c <=? 70) then Some (c - 55)
  else None.
Fixpoint hex_decode (s : bytes) : option bytes :=
  match s with
  | [] => Some []
  | a :: r => match r with
              | b :: r' => match hex_digit a, hex_digit b, hex_decode r' with
                           | Some x, Some y, Some t => Some (16 * x + y :: t)
                           | _, _, _ => None
                           end
              | [] => None
              end
  end.

(* time.ParseDuration *)
Inductive dres := DOk (ns : Z) | DErr | DUnmodelled.

(* a Go map with string keys, as an association list; the first binding of a key counts *)
Fixpoint lookup {V} (k : bytes) (m : list (bytes * V)) : option V :=
  match m with
  | [] => None
  | (k', v) :: r => if beq_bytes k k' then Some v else lookup k r
  end.

(* unitMap without the two non-ASCII spellings of the micro-second *)
Definition unit_table : list (bytes * Z) :=
  Eval cbv in [(bs "ns", 1); (bs "us", 1000); (bs "ms", 1000000); (bs "s", 1000000000);
               (bs "m", 60000000000); (bs "h", 3600000000000)].
Definition unit_ns (u : bytes) : option Z := lookup u unit_table.

(* leadingInt: the digits are consumed one by one with two overflow checks *)
Fixpoint leading_int (x : Z) (s : bytes) : option (Z * bytes) :=
  match s with
  | c :: r => if is_digit c then
                if x >? 2 ^ 63 / 10 then None
                else let x' := x * 10 + (c - 48) in
                     if x' >? 2 ^ 63 then None else leading_int x' r
              else Some (x, s)
  | [] => Some (x, [])
  end.

(* one iteration per component; fuel = length of the string (each iteration consumes at least 2 bytes) *)
Fixpoint pd_loop (fuel : nat) (d : Z) (s : bytes) : dres :=
  match s with
  | [] => if d >? 2 ^ 63 - 1 then DErr else DOk d
  | c :: _ =>
    match fuel with
    | O => DErr
    | S fuel' =>
      if negb (is_digit c) then DErr
      else match leading_int 0 s with
           | None => DErr
           | Some (v, s1) =>
             let u := take_until is_digit s1 in
             let s2 := drop_while (fun b => negb (is_digit b)) s1 in
             match u with
             | [] => DErr
             | _ => match unit_ns u with
                    | None => DErr
                    | Some unit =>
                      if v >? 2 ^ 63 / unit then DErr
                      else let d' := d + v * unit in
                           if d' >? 2 ^ 63 then DErr else pd_loop fuel' d' s2
                    end
             end
           end
    end
  end.

Definition go_parse_duration (s : bytes) : dres :=
  if negb (is_ascii s) || contains_byte 46 s || has_prefix [43] s || has_prefix [45] s then DUnmodelled
  else if beq_bytes s [48] then DOk 0
  else match s with
       | [] => DErr
       | _ => pd_loop (length s) 0 s
       end.

Lemma cut_spec c s a b : cut c s = Some (a, b) -> s = a ++ c :: b /\ ~ In c a.
Proof.
  revert a b; induction s as [|x s IH]; intros a b; cbn; [discriminate|].
  destruct (Z.eqb_spec x c) as [->|Hne].
  - intros H; inversion H; subst; cbn; auto.
  - destruct (cut c s) as [[a' b']|]; [|discriminate].
    intros H; inversion H; subst. destruct (IH _ _ eq_refl) as [-> Hn].
    split; [reflexivity|]. cbn; intros [E|E]; [congruence|auto].
Qed.

Lemma cut_none c s : cut c s = None <-> ~ In c s.
Proof.
  induction s as [|x s IH]; cbn; [tauto|].
  destruct (Z.eqb_spec x c) as [->|Hne].
  - split; [discriminate|]. intros H; exfalso; apply H; auto.
  - destruct (cut c s) as [[a b]|].
    + split; [discriminate|]. intros H; exfalso.
      assert (~ In c s) by (intros E; apply H; auto). apply IH in H0; discriminate.
    + split; [|reflexivity]. intros _ [E|E]; [congruence|]. apply IH in E; auto.
Qed.

Lemma cut_app c a b : ~ In c a -> cut c (a ++ c :: b) = Some (a, b).
Proof.
  induction a as [|x a IH]; cbn; intros H.
  - now rewrite Z.eqb_refl.
  - destruct (Z.eqb_spec x c) as [->|Hne]; [exfalso; apply H; auto|].
    rewrite IH; [reflexivity|]. intros E; apply H; auto.
Qed.

Lemma has_prefix_spec p s : has_prefix p s = true <-> exists t, s = p ++ t.
Proof.
  revert s; induction p as [|x p IH]; intros s; cbn.
  - split; [eauto|reflexivity].
  - destruct s as [|y s].
    + split; [discriminate|]. intros [t E]; discriminate.
    + rewrite andb_true_iff, Z.eqb_eq, IH. split.
      * intros [-> [t ->]]; eauto.
      * intros [t E]; inversion E; subst; eauto.
Qed.

Lemma has_suffix_spec p s : has_suffix p s = true <-> exists t, s = t ++ p.
Proof.
  unfold has_suffix. rewrite has_prefix_spec. split.
  - intros [t E]. exists (rev t). apply (f_equal (@rev Z)) in E.
    rewrite rev_involutive, rev_app_distr, rev_involutive in E. exact E.
  - intros [t ->]. exists (rev t). now rewrite rev_app_distr.
Qed.

Lemma trim_suffix_app t p : trim_suffix (t ++ p) p = t.
Proof.
  unfold trim_suffix.
  replace (has_suffix p (t ++ p)) with true by (symmetry; apply has_suffix_spec; eauto).
  rewrite app_length. replace (length t + length p - length p)%nat with (length t) by lia.
  apply firstn_app_exact.
Qed.

Lemma trim_suffix_no s p : has_suffix p s = false -> trim_suffix s p = s.
Proof. unfold trim_suffix; now intros ->. Qed.

Lemma splitn_SS c n s :
  splitn c (S (S n)) s = match cut c s with None => [s] | Some (a, b) => a :: splitn c (S n) b end.
Proof. reflexivity. Qed.

Lemma splitn_nonempty c n s : splitn c (S n) s <> [].
Proof. destruct n; [discriminate|]. rewrite splitn_SS. destruct (cut c s) as [[? ?]|]; discriminate. Qed.

Lemma after_cuts_S c k s :
  after_cuts c (S k) s = match cut c s with Some (_, b) => after_cuts c k b | None => s end.
Proof. reflexivity. Qed.

Lemma splitn_last c k s d : last (splitn c (S k) s) d = after_cuts c k s.
Proof.
  revert s; induction k as [|k IH]; intros s; [reflexivity|].
  rewrite splitn_SS, after_cuts_S. destruct (cut c s) as [[a b]|] eqn:E; [|reflexivity].
  rewrite <- IH. pose proof (splitn_nonempty c k b). destruct (splitn c (S k) b); [congruence|reflexivity].
Qed.

Lemma drop_while_false p s : match s with [] => True | c :: _ => p c = false end -> drop_while p s = s.
Proof. destruct s; cbn; [reflexivity|]. now intros ->. Qed.

Lemma drop_while_app_true p a s : forallb p a = true -> drop_while p (a ++ s) = drop_while p s.
Proof.
  induction a as [|x a IH]; cbn; [reflexivity|].
  rewrite andb_true_iff; intros [-> H]; auto.
Qed.

Lemma take_until_app p a c s : forallb (fun b => negb (p b)) a = true -> p c = true ->
  take_until p (a ++ c :: s) = a.
Proof.
  induction a as [|x a IH]; cbn; intros H Hc; [now rewrite Hc|].
  rewrite andb_true_iff in H; destruct H as [Hx H]. apply negb_true_iff in Hx; rewrite Hx.
  now rewrite IH.
Qed.

Lemma take_until_all p a : forallb (fun b => negb (p b)) a = true -> take_until p a = a.
Proof.
  induction a as [|x a IH]; cbn; [reflexivity|].
  rewrite andb_true_iff; intros [Hx H]. apply negb_true_iff in Hx; rewrite Hx. now rewrite IH.
Qed.

(* a string that neither begins nor ends with white space is left alone by TrimSpace,
   and white space around it is removed *)
Definition no_edge_space (s : bytes) : Prop :=
  match s with [] => True | c :: _ => is_space c = false end /\
  match rev s with [] => True | c :: _ => is_space c = false end.

Lemma trim_space_pad a s b : forallb is_space a = true -> forallb is_space b = true -> no_edge_space s ->
  trim_space (a ++ s ++ b) = s.
Proof.
  intros Ha Hb [H1 H2]. unfold trim_space, trim_left, trim_right.
  rewrite drop_while_app_true by exact Ha.
  destruct s as [|c s].
  - cbn [app].
    assert (drop_while is_space b = []) as ->.
    { rewrite <- (app_nil_r b). rewrite drop_while_app_true by exact Hb. reflexivity. }
    reflexivity.
  - cbn [app]. cbn in H1. rewrite (drop_while_false is_space (c :: s ++ b)) by exact H1.
    change (c :: s ++ b) with ((c :: s) ++ b). rewrite rev_app_distr.
    rewrite drop_while_app_true by (rewrite forallb_forall in *; intros x Hx; apply Hb; now apply in_rev).
    rewrite drop_while_false by exact H2. apply rev_involutive.
Qed.

Lemma trim_space_id s : no_edge_space s -> trim_space s = s.
Proof. intros H. rewrite <- (trim_space_pad [] s [] eq_refl eq_refl H) at 2. now rewrite app_nil_r. Qed.

Lemma trim_space_drop_left ws s : forallb is_space ws = true -> trim_space (ws ++ s) = trim_space s.
Proof. intros H. unfold trim_space, trim_left. now rewrite drop_while_app_true. Qed.

Lemma split_byte_no c s : ~ In c s -> split_byte c s = [s].
Proof.
  induction s as [|x s IH]; cbn; [reflexivity|]. intros H.
  destruct (Z.eqb_spec x c) as [->|Hne]; [exfalso; apply H; auto|].
  rewrite IH by (intros E; apply H; auto). reflexivity.
Qed.

Lemma split_byte_app c a b : ~ In c a -> split_byte c (a ++ c :: b) = a :: split_byte c b.
Proof.
  induction a as [|x a IH]; cbn; intros H.
  - now rewrite Z.eqb_refl.
  - destruct (Z.eqb_spec x c) as [->|Hne]; [exfalso; apply H; auto|].
    rewrite IH by (intros E; apply H; auto). reflexivity.
Qed.

Lemma split_byte_two c a b : ~ In c a -> ~ In c b -> split_byte c (a ++ c :: b) = [a; b].
Proof. intros Ha Hb. now rewrite split_byte_app, split_byte_no. Qed.

Lemma split_byte_nonempty c s : exists h t, split_byte c s = h :: t.
Proof.
  induction s as [|x s (h & t & E)]; cbn; [eauto|].
  destruct (x =? c); [eauto|]. rewrite E. eauto.
Qed.

Lemma contains_byte_in c s : contains_byte c s = true <-> In c s.
Proof.
  unfold contains_byte. rewrite existsb_exists. split.
  - intros [x [H E]]. apply Z.eqb_eq in E; now subst.
  - intros H; exists c; split; [exact H|apply Z.eqb_refl].
Qed.

Lemma contains_byte_false c s : contains_byte c s = false <-> ~ In c s.
Proof. rewrite <- contains_byte_in. symmetry. apply not_true_iff_false. Qed.

Lemma forallb_not_in (p : Z -> bool) c s : p c = false -> forallb p s = true -> ~ In c s.
Proof. rewrite forallb_forall. intros Hc H Hin. rewrite (H _ Hin) in Hc. discriminate. Qed.

Lemma forallb_imp {A} (p q : A -> bool) l :
  (forall x, p x = true -> q x = true) -> forallb p l = true -> forallb q l = true.
Proof. intros H. rewrite !forallb_forall. auto. Qed.

Lemma remove_byte_none c s : ~ In c s -> remove_byte c s = s.
Proof.
  unfold remove_byte. induction s as [|x s IH]; cbn; intros H; [reflexivity|].
  destruct (Z.eqb_spec x c) as [->|_]; [exfalso; apply H; left; reflexivity|].
  cbn. rewrite IH; [reflexivity|]. intros E; apply H; right; exact E.
Qed.

Lemma has_prefix1_none c s : ~ In c s -> has_prefix [c] s = false.
Proof.
  destruct s as [|x s]; cbn; intros H; [reflexivity|].
  destruct (Z.eqb_spec c x) as [->|_]; [exfalso; apply H; left; reflexivity|reflexivity].
Qed.

Lemma no_edge_class (p : Z -> bool) s :
  (forall c, p c = true -> is_space c = false) -> forallb p s = true -> no_edge_space s.
Proof.
  intros Hp Hs. rewrite forallb_forall in Hs. split.
  - destruct s as [|c r]; [exact I|]. apply Hp, Hs. left; reflexivity.
  - destruct (rev s) as [|c r] eqn:E; [exact I|]. apply Hp, Hs, in_rev. rewrite E. left; reflexivity.
Qed.

Lemma to_lower_idem s : to_lower (to_lower s) = to_lower s.
Proof.
  unfold to_lower. rewrite map_map. apply map_ext. intros b. unfold lower_byte.
  destruct ((65 <=? b) && (b <=? 90)) eqn:E.
  - rewrite andb_true_iff, !Z.leb_le in E.
    destruct ((65 <=? b + 32) && (b + 32 <=? 90)) eqn:F; [|reflexivity].
    rewrite andb_true_iff, !Z.leb_le in F. lia.
  - now rewrite E.
Qed.
