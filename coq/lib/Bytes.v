(* Gokrb5.lib.Bytes — bytes as lists of Z, fixed-width integer codecs, Go-style outcomes.
   One numeric type (Z) everywhere so that lia needs no conversions. *)
From Coq Require Export List ZArith Lia Bool.
Export ListNotations.
Open Scope Z_scope.

Definition byte := Z.
Definition bytes := list Z.

Definition is_byte (b : Z) : bool := (0 <=? b) && (b <? 256).
Definition wf_bytes (l : bytes) : Prop := Forall (fun b => 0 <= b < 256) l.
Definition wf_bytesb (l : bytes) : bool := forallb is_byte l.

Definition zlen {A} (l : list A) : Z := Z.of_nat (length l).

(* Go outcomes: a value, an error, or a run-time panic (index/slice out of range, nil deref). *)
Inductive res (A : Type) : Type :=
| Ok (a : A)
| Err (code : Z)
| Panic (site : Z).
Arguments Ok {A} a.
Arguments Err {A} code.
Arguments Panic {A} site.

Definition bind {A B} (r : res A) (f : A -> res B) : res B :=
  match r with Ok a => f a | Err c => Err c | Panic s => Panic s end.
Notation "'do' x <- r ; k" := (bind r (fun x => k)) (at level 200, x pattern, r at level 100, k at level 200).

Definition is_ok {A} (r : res A) : bool := match r with Ok _ => true | _ => false end.
Definition is_panic {A} (r : res A) : bool := match r with Panic _ => true | _ => false end.

(* l[lo:hi]; gslice and gindex apply Go's bounds rule (on a slice whose cap = len) *)
Definition slice {A} (l : list A) (lo hi : Z) : list A :=
  firstn (Z.to_nat (hi - lo)) (skipn (Z.to_nat lo) l).
Definition gslice {A} (site : Z) (l : list A) (lo hi : Z) : res (list A) :=
  if (0 <=? lo) && (lo <=? hi) && (hi <=? zlen l) then Ok (slice l lo hi) else Panic site.
Definition gindex {A} (site : Z) (l : list A) (i : Z) : res A :=
  if (0 <=? i) then match nth_error l (Z.to_nat i) with Some a => Ok a | None => Panic site end
  else Panic site.

(* wrap to w bits, and signed reading of a w-bit word *)
Definition wrap (w : Z) (z : Z) : Z := z mod 2 ^ w.
Definition sint (w : Z) (z : Z) : Z :=
  let m := z mod 2 ^ w in if m <? 2 ^ (w - 1) then m else m - 2 ^ w.

(* big-endian / little-endian values *)
Fixpoint be_val_acc (acc : Z) (l : bytes) : Z :=
  match l with [] => acc | b :: r => be_val_acc (acc * 256 + b) r end.
Definition be_val (l : bytes) : Z := be_val_acc 0 l.
Fixpoint le_val (l : bytes) : Z :=
  match l with [] => 0 | b :: r => b + 256 * le_val r end.

Fixpoint le_bytes (n : nat) (z : Z) : bytes :=
  match n with O => [] | S n' => (z mod 256) :: le_bytes n' (z / 256) end.
Definition be_bytes (n : nat) (z : Z) : bytes := rev (le_bytes n z).

Definition beq_bytes (a b : bytes) : bool :=
  (fix go (a b : bytes) : bool :=
     match a, b with
     | [], [] => true
     | x :: a', y :: b' => (x =? y) && go a' b'
     | _, _ => false
     end) a b.

Fixpoint repeatz (x : Z) (n : nat) : bytes := match n with O => [] | S n' => x :: repeatz x n' end.

Lemma bind_ok {A B} (r : res A) (f : A -> res B) b :
  bind r f = Ok b -> exists a, r = Ok a /\ f a = Ok b.
Proof. destruct r; cbn; try discriminate. eauto. Qed.

Lemma bind_no_panic {A B} (r : res A) (f : A -> res B) :
  is_panic r = false -> (forall a, r = Ok a -> is_panic (f a) = false) -> is_panic (bind r f) = false.
Proof. destruct r; cbn; auto. Qed.

Lemma ok_inj {A} (a b : A) : Ok a = Ok b -> a = b.
Proof. congruence. Qed.

Lemma some_inj {A} (a b : A) : Some a = Some b -> a = b.
Proof. congruence. Qed.

(* lists *)
Lemma match_cons {A B} (l : list A) (a b : B) : l <> [] -> match l with [] => a | _ :: _ => b end = b.
Proof. destruct l; [congruence | reflexivity]. Qed.

Lemma app_nonempty_l {A} (a b : list A) : a <> [] -> a ++ b <> [].
Proof. destruct a; [congruence | discriminate]. Qed.

Lemma list_ind2 {A} (P : list A -> Prop) :
  P [] -> (forall a, P [a]) -> (forall a b l, P l -> P (a :: b :: l)) -> forall l, P l.
Proof. intros H0 H1 H2. fix IH 1. intros [|a [|b l]]; [exact H0|apply H1|apply H2, IH]. Qed.

Lemma Forall_forallb {A} (f : A -> bool) l : forallb f l = true -> Forall (fun x => f x = true) l.
Proof. intros H. apply Forall_forall. apply forallb_forall, H. Qed.

Lemma existsb_eqb_In {A} (eqb : A -> A -> bool) :
  (forall x y, eqb x y = true <-> x = y) -> forall a l, existsb (eqb a) l = true <-> In a l.
Proof.
  intros H a l. rewrite existsb_exists. split.
  - intros (x & Hx & E). apply H in E. now subst.
  - intros Hin. exists a. split; [exact Hin|now apply H].
Qed.

Lemma skipn_add {A} a b (l : list A) : skipn a (skipn b l) = skipn (b + a) l.
Proof.
  revert l; induction b as [|b IH]; intros l; cbn [Nat.add]; [reflexivity|].
  destruct l; [destruct a; reflexivity|]. cbn [skipn]. apply IH.
Qed.

Lemma nth_error_firstn {A} (l : list A) n i : (i < n)%nat -> nth_error (firstn n l) i = nth_error l i.
Proof.
  revert l i; induction n as [|n IH]; intros l i H; [lia|]. destruct l; [destruct i; reflexivity|].
  destruct i; cbn; [reflexivity|apply IH; lia].
Qed.

Lemma nth_error_skipn {A} (l : list A) n i : nth_error (skipn n l) i = nth_error l (n + i).
Proof.
  revert l; induction n as [|n IH]; intros l; [reflexivity|]. destruct l; [destruct i; reflexivity|].
  cbn. apply IH.
Qed.

Lemma skipn_nth {A} (l : list A) k d : (k < length l)%nat -> skipn k l = nth k l d :: skipn (S k) l.
Proof.
  revert l; induction k as [|k IH]; intros [|x l] H; cbn in *; try lia; [reflexivity|].
  apply IH; lia.
Qed.

Lemma firstn_app_exact {A} (a b : list A) : firstn (length a) (a ++ b) = a.
Proof. rewrite firstn_app, Nat.sub_diag, firstn_all; cbn; apply app_nil_r. Qed.

Lemma skipn_app_exact {A} (a b : list A) : skipn (length a) (a ++ b) = b.
Proof. rewrite skipn_app, Nat.sub_diag, skipn_all; reflexivity. Qed.

Lemma app_inv_head_len {A} (a b c d : list A) : length a = length b -> a ++ c = b ++ d -> a = b /\ c = d.
Proof.
  revert b; induction a as [|x a IH]; intros [|y b] Hl E; cbn in *; try lia; [auto|].
  injection E as -> E. destruct (IH b ltac:(lia) E) as [-> ->]. auto.
Qed.

Lemma app_inv_tail_len {A} (a b c d : list A) : length c = length d -> a ++ c = b ++ d -> a = b /\ c = d.
Proof.
  intros Hl E. apply app_inv_head_len; [|exact E].
  apply (f_equal (@length A)) in E. rewrite !app_length in E. lia.
Qed.

(* zlen and slice *)
Lemma zlen_nonneg {A} (l : list A) : 0 <= zlen l.
Proof. unfold zlen; lia. Qed.

Lemma zlen_app {A} (a b : list A) : zlen (a ++ b) = zlen a + zlen b.
Proof. unfold zlen; rewrite app_length; lia. Qed.

Lemma zlen_cons {A} (x : A) (l : list A) : zlen (x :: l) = 1 + zlen l.
Proof. unfold zlen; cbn [length]; lia. Qed.

Lemma zlen_nil {A} : zlen (@nil A) = 0.
Proof. reflexivity. Qed.

Lemma Z2Nat_zlen {A} (l : list A) : Z.to_nat (zlen l) = length l.
Proof. apply Nat2Z.id. Qed.

Lemma zlen_pos {A} (l : list A) : l <> [] -> 0 < zlen l.
Proof. destruct l; [congruence|]. intros _. rewrite zlen_cons. pose proof (zlen_nonneg l). lia. Qed.

Lemma firstn_zlen_app {A} (a b : list A) : firstn (Z.to_nat (zlen a)) (a ++ b) = a.
Proof. rewrite Z2Nat_zlen. apply firstn_app_exact. Qed.

Lemma skipn_zlen_app {A} (a b : list A) : skipn (Z.to_nat (zlen a)) (a ++ b) = b.
Proof. rewrite Z2Nat_zlen. apply skipn_app_exact. Qed.

Lemma zlen_firstn {A} n (l : list A) : zlen (firstn n l) = Z.min (Z.of_nat n) (zlen l).
Proof. unfold zlen. rewrite firstn_length. lia. Qed.

Lemma zlen_skipn {A} n (l : list A) : zlen (skipn n l) = Z.max 0 (zlen l - Z.of_nat n).
Proof. unfold zlen. rewrite skipn_length. lia. Qed.

Lemma zlen_slice {A} (l : list A) lo hi : 0 <= lo -> lo <= hi -> hi <= zlen l -> zlen (slice l lo hi) = hi - lo.
Proof. intros. unfold slice. rewrite zlen_firstn, zlen_skipn. lia. Qed.

Lemma slice_length {A} (l : list A) lo hi :
  0 <= lo -> lo <= hi -> hi <= zlen l -> length (slice l lo hi) = Z.to_nat (hi - lo).
Proof. intros. pose proof (zlen_slice l lo hi). unfold zlen in *. lia. Qed.

Lemma slice_as_firstn_skipn {A} (l : list A) lo n : 0 <= lo -> 0 <= n ->
  slice l lo (lo + n) = firstn (Z.to_nat n) (skipn (Z.to_nat lo) l).
Proof. intros. unfold slice. f_equal. f_equal. lia. Qed.

Lemma slice_mid {A} (pre x rest : list A) lo hi :
  lo = zlen pre -> hi = lo + zlen x -> slice (pre ++ x ++ rest) lo hi = x.
Proof.
  intros -> ->. unfold slice. replace (zlen pre + zlen x - zlen pre) with (zlen x) by lia.
  now rewrite skipn_zlen_app, firstn_zlen_app.
Qed.

Lemma slice_suffix {A} (pre x : list A) lo hi :
  lo = zlen pre -> hi = lo + zlen x -> slice (pre ++ x) lo hi = x.
Proof. intros. rewrite <- (app_nil_r x) at 1. now apply slice_mid. Qed.

Lemma nth_error_slice {A} (l : list A) lo hi i : 0 <= lo -> lo <= hi -> hi <= zlen l ->
  (i < Z.to_nat (hi - lo))%nat -> nth_error (slice l lo hi) i = nth_error l (Z.to_nat lo + i).
Proof. intros. unfold slice. rewrite nth_error_firstn by lia. apply nth_error_skipn. Qed.

Lemma nth_error_out {A} (l : list A) i : zlen l <= i -> nth_error l (Z.to_nat i) = None.
Proof. intros H. apply nth_error_None. unfold zlen in H. lia. Qed.

(* Go's checked index and slice expressions *)
Lemma gindex_ok {A} site (l : list A) i : 0 <= i < zlen l ->
  exists v, gindex site l i = Ok v /\ nth_error l (Z.to_nat i) = Some v.
Proof.
  intros H. unfold gindex. destruct (Z.leb_spec 0 i); [|lia].
  destruct (nth_error l (Z.to_nat i)) as [v|] eqn:E; [eauto|].
  apply nth_error_None in E. unfold zlen in H. lia.
Qed.

Lemma gindex_0 {A} site (x : A) l : gindex site (x :: l) 0 = Ok x.
Proof. reflexivity. Qed.

Lemma gindex_1 {A} site (x y : A) l : gindex site (x :: y :: l) 1 = Ok y.
Proof. reflexivity. Qed.

Lemma gindex_nth {A} s (l : list A) i : 0 <= i ->
  gindex s l i = match nth_error l (Z.to_nat i) with Some a => Ok a | None => Panic s end.
Proof. intros H. unfold gindex. destruct (Z.leb_spec 0 i); [reflexivity | lia]. Qed.

Lemma gindex_last {A} site (l : list A) d : l <> [] -> gindex site l (zlen l - 1) = Ok (last l d).
Proof.
  intros H. unfold gindex.
  pose proof (zlen_pos l H).
  destruct (Z.leb_spec 0 (zlen l - 1)); [|lia].
  replace (Z.to_nat (zlen l - 1)) with (length l - 1)%nat by (unfold zlen; lia).
  clear -H. induction l as [|x l IH]; [congruence|].
  destruct l as [|y l]; [reflexivity|].
  cbn [length last]. replace (S (S (length l)) - 1)%nat with (S (length l)) by lia.
  cbn [nth_error]. specialize (IH ltac:(discriminate)). cbn [length] in IH.
  replace (S (length l) - 1)%nat with (length l) in IH by lia. exact IH.
Qed.

Lemma gslice_ok {A} site (l : list A) lo hi :
  0 <= lo -> lo <= hi -> hi <= zlen l -> gslice site l lo hi = Ok (slice l lo hi).
Proof.
  intros. unfold gslice.
  destruct (Z.leb_spec 0 lo); [|lia]. destruct (Z.leb_spec lo hi); [|lia].
  destruct (Z.leb_spec hi (zlen l)); [reflexivity|lia].
Qed.

Lemma gslice_inv {A} site (l : list A) lo hi r : gslice site l lo hi = Ok r ->
  0 <= lo /\ lo <= hi /\ hi <= zlen l /\ r = slice l lo hi.
Proof.
  unfold gslice.
  destruct (Z.leb_spec 0 lo), (Z.leb_spec lo hi), (Z.leb_spec hi (zlen l)); cbn; try discriminate.
  intros E; injection E as <-. auto.
Qed.

(* byte strings *)
Lemma beq_bytes_eq a b : beq_bytes a b = true <-> a = b.
Proof.
  revert b; induction a as [|x a IH]; intros [|y b]; cbn; try (split; congruence).
  rewrite andb_true_iff, Z.eqb_eq, IH. split; [intros [-> ->]; reflexivity | intros H; inversion H; auto].
Qed.

Lemma beq_bytes_refl a : beq_bytes a a = true.
Proof. apply beq_bytes_eq; reflexivity. Qed.

Lemma is_byte_iff x : is_byte x = true <-> 0 <= x < 256.
Proof. unfold is_byte; lia. Qed.

Lemma wf_bytes_cons x l : wf_bytes (x :: l) <-> 0 <= x < 256 /\ wf_bytes l.
Proof. apply Forall_cons_iff. Qed.

Lemma wf_bytesb_iff l : wf_bytesb l = true <-> wf_bytes l.
Proof.
  unfold wf_bytesb, wf_bytes. rewrite forallb_forall, Forall_forall.
  split; intros H x Hx; apply is_byte_iff, H, Hx.
Qed.

Lemma wf_bytes_app a b : wf_bytes (a ++ b) <-> wf_bytes a /\ wf_bytes b.
Proof. unfold wf_bytes; apply Forall_app. Qed.

Lemma wf_bytes_rev a : wf_bytes a -> wf_bytes (rev a).
Proof. unfold wf_bytes; apply Forall_rev. Qed.

Lemma wf_firstn n l : wf_bytes l -> wf_bytes (firstn n l).
Proof.
  revert l; induction n as [|n IH]; intros [|x l] H; cbn [firstn]; try (constructor; fail).
  apply wf_bytes_cons in H. apply wf_bytes_cons. split; [apply H|apply IH, H].
Qed.

Lemma wf_skipn n l : wf_bytes l -> wf_bytes (skipn n l).
Proof.
  revert l; induction n as [|n IH]; intros [|x l] H; cbn [skipn]; try assumption.
  apply wf_bytes_cons in H. apply IH, H.
Qed.

Lemma wf_slice l lo hi : wf_bytes l -> wf_bytes (slice l lo hi).
Proof. intros H. apply wf_firstn, wf_skipn, H. Qed.

Lemma concat_wf (ls : list bytes) : Forall wf_bytes ls -> wf_bytes (concat ls).
Proof. apply Forall_concat. Qed.

Lemma flat_map_wf {A} (f : A -> bytes) l : (forall x, wf_bytes (f x)) -> wf_bytes (flat_map f l).
Proof. intros H. induction l as [|x l IH]; [constructor|]. cbn [flat_map]. apply wf_bytes_app. auto. Qed.

Lemma concat_length_ge {A} (enc : A -> bytes) (k : nat) (xs : list A) :
  (forall x, k <= length (enc x))%nat -> (k * length xs <= length (concat (map enc xs)))%nat.
Proof.
  intros H. induction xs as [|x xs IH]; cbn [map concat length]; [lia|].
  rewrite app_length. specialize (H x). lia.
Qed.

Lemma repeatz_length x n : length (repeatz x n) = n.
Proof. induction n as [|n IH]; cbn; [reflexivity | now rewrite IH]. Qed.

Lemma repeatz_wf n : wf_bytes (repeatz 0 n).
Proof. induction n as [|n IH]; constructor; [lia | exact IH]. Qed.

Lemma lxor_cancel_r x y : Z.lxor (Z.lxor x y) y = x.
Proof. now rewrite Z.lxor_assoc, Z.lxor_nilpotent, Z.lxor_0_r. Qed.

(* integer codecs *)
Lemma le_bytes_length n z : length (le_bytes n z) = n.
Proof. revert z; induction n as [|n IH]; intros z; cbn; [reflexivity| now rewrite IH]. Qed.

Lemma be_bytes_length n z : length (be_bytes n z) = n.
Proof. unfold be_bytes; now rewrite rev_length, le_bytes_length. Qed.

Lemma le_bytes_wf n z : wf_bytes (le_bytes n z).
Proof.
  revert z; induction n as [|n IH]; intros z; cbn; constructor; [|apply IH].
  apply Z.mod_pos_bound; lia.
Qed.

Lemma be_bytes_wf n z : wf_bytes (be_bytes n z).
Proof. apply wf_bytes_rev, le_bytes_wf. Qed.

Lemma pow256 w : 256 ^ Z.of_nat w = 2 ^ (8 * Z.of_nat w).
Proof. change 256 with (2 ^ 8). rewrite <- Z.pow_mul_r by lia. reflexivity. Qed.

Lemma le_val_le_bytes n z : le_val (le_bytes n z) = z mod 256 ^ Z.of_nat n.
Proof.
  revert z; induction n as [|n IH]; intros z.
  - cbn. now rewrite Z.mod_1_r.
  - cbn [le_bytes le_val]. rewrite IH.
    replace (256 ^ Z.of_nat (S n)) with (256 * 256 ^ Z.of_nat n)
      by (rewrite Nat2Z.inj_succ, Z.pow_succ_r; lia).
    rewrite Z.rem_mul_r by lia. lia.
Qed.

Lemma be_val_acc_app acc a b : be_val_acc acc (a ++ b) = be_val_acc (be_val_acc acc a) b.
Proof. revert acc; induction a as [|x a IH]; intros acc; cbn; [reflexivity | apply IH]. Qed.

Lemma be_val_acc_rev l acc : be_val_acc acc (rev l) = le_val l + acc * 256 ^ zlen l.
Proof.
  revert acc; induction l as [|x l IH]; intros acc.
  - cbn. lia.
  - cbn [rev le_val]. rewrite be_val_acc_app, IH. cbn [be_val_acc].
    rewrite zlen_cons, Z.pow_add_r by (pose proof (zlen_nonneg l); lia). lia.
Qed.

Lemma be_val_rev l : be_val (rev l) = le_val l.
Proof. unfold be_val; rewrite be_val_acc_rev; lia. Qed.

Lemma be_val_be_bytes n z : be_val (be_bytes n z) = z mod 256 ^ Z.of_nat n.
Proof. unfold be_bytes; rewrite be_val_rev; apply le_val_le_bytes. Qed.

Lemma le_val_bound l : wf_bytes l -> 0 <= le_val l < 256 ^ zlen l.
Proof.
  induction 1 as [|x l Hx Hl IH]; cbn [le_val].
  - cbn; lia.
  - rewrite zlen_cons, Z.pow_add_r by (pose proof (zlen_nonneg l); lia). lia.
Qed.

Lemma be_val_bound l : wf_bytes l -> 0 <= be_val l < 256 ^ zlen l.
Proof.
  intros H. rewrite <- (rev_involutive l), be_val_rev.
  replace (zlen (rev (rev l))) with (zlen (rev l)) by (unfold zlen; now rewrite !rev_length).
  apply le_val_bound, wf_bytes_rev, H.
Qed.

Lemma le_val_nonneg l : wf_bytes l -> 0 <= le_val l.
Proof. intros H. pose proof (le_val_bound l H). lia. Qed.

Lemma le_val_le_bytes_small n z : 0 <= z < 256 ^ Z.of_nat n -> le_val (le_bytes n z) = z.
Proof. intros H. rewrite le_val_le_bytes. apply Z.mod_small, H. Qed.

Lemma be_val_be_bytes_small n z : 0 <= z < 256 ^ Z.of_nat n -> be_val (be_bytes n z) = z.
Proof. intros H. rewrite be_val_be_bytes. apply Z.mod_small, H. Qed.

Lemma le_bytes_inj n a b : 0 <= a < 256 ^ Z.of_nat n -> 0 <= b < 256 ^ Z.of_nat n ->
  le_bytes n a = le_bytes n b -> a = b.
Proof. intros Ha Hb E. apply (f_equal le_val) in E. now rewrite !le_val_le_bytes_small in E. Qed.

Lemma be_bytes_inj n a b : 0 <= a < 256 ^ Z.of_nat n -> 0 <= b < 256 ^ Z.of_nat n ->
  be_bytes n a = be_bytes n b -> a = b.
Proof. intros Ha Hb E. apply (f_equal be_val) in E. now rewrite !be_val_be_bytes_small in E. Qed.

Lemma sint_range w z : 0 < w -> - 2 ^ (w - 1) <= sint w z < 2 ^ (w - 1).
Proof.
  intros Hw. unfold sint.
  assert (2 ^ w = 2 * 2 ^ (w - 1)) as E by (rewrite <- Z.pow_succ_r by lia; f_equal; lia).
  assert (0 < 2 ^ (w - 1)) by (apply Z.pow_pos_nonneg; lia).
  pose proof (Z.mod_pos_bound z (2 ^ w) ltac:(lia)).
  destruct (Z.ltb_spec (z mod 2 ^ w) (2 ^ (w - 1))); lia.
Qed.

Lemma sint_wrap w z : 0 < w -> (sint w z) mod 2 ^ w = z mod 2 ^ w.
Proof.
  intros Hw. unfold sint.
  assert (0 < 2 ^ w) by (apply Z.pow_pos_nonneg; lia).
  destruct (Z.ltb_spec (z mod 2 ^ w) (2 ^ (w - 1))).
  - apply Z.mod_mod; lia.
  - replace (z mod 2 ^ w - 2 ^ w) with (z mod 2 ^ w + (-1) * 2 ^ w) by lia.
    rewrite Z.mod_add by lia. apply Z.mod_mod; lia.
Qed.

Lemma sint_mod_signed w z : 0 < w -> - 2 ^ (w - 1) <= z < 2 ^ (w - 1) -> sint w (z mod 2 ^ w) = z.
Proof.
  intros Hw Hz. unfold sint.
  assert (2 ^ w = 2 * 2 ^ (w - 1)) as E by (rewrite <- Z.pow_succ_r by lia; f_equal; lia).
  assert (0 < 2 ^ (w - 1)) by (apply Z.pow_pos_nonneg; lia).
  rewrite Z.mod_mod by lia.
  destruct (Z_lt_le_dec z 0) as [Hneg|Hpos].
  - replace (z mod 2 ^ w) with (z + 2 ^ w).
    + destruct (Z.ltb_spec (z + 2 ^ w) (2 ^ (w - 1))); lia.
    + symmetry. replace (z + 2 ^ w) with (z + 1 * 2 ^ w) by lia.
      rewrite <- (Z.mod_add z 1 (2 ^ w)) by lia. apply Z.mod_small; lia.
  - rewrite Z.mod_small by lia. destruct (Z.ltb_spec z (2 ^ (w - 1))); lia.
Qed.

Lemma sint_id w z : 0 < w -> - 2 ^ (w - 1) <= z < 2 ^ (w - 1) -> sint w z = z.
Proof.
  intros Hw Hz. rewrite <- (sint_mod_signed w z Hw Hz) at 2. unfold sint.
  rewrite Z.mod_mod by (apply Z.pow_nonzero; lia). reflexivity.
Qed.

Lemma sint_small w z : 0 < w -> 0 <= z < 2 ^ (w - 1) -> sint w z = z.
Proof. intros Hw Hz. apply sint_id; lia. Qed.

Lemma wrap_sint_mod w z : 0 < w -> 0 <= z < 2 ^ w -> wrap w (sint w (z mod 2 ^ w)) = z.
Proof.
  intros Hw Hz. unfold wrap. rewrite sint_wrap by lia.
  rewrite Z.mod_mod by (apply Z.pow_nonzero; lia). apply Z.mod_small; lia.
Qed.
