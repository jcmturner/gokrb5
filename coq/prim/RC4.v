(* Gokrb5.prim.RC4 — the RC4 stream cipher (KSA + PRGA), executable.

   The 256-entry state is a list of Z updated functionally.  Indices i, j are Z values reduced
   modulo 256 with Z.land _ 255; list positions are the corresponding nat.
   An empty key is treated as the all-zero key byte stream (Go's crypto/rc4 rejects it). *)
From Gokrb5.lib Require Import Bytes.

(* ---------- one-pass swap ---------- *)

(* replace l[d] by a and return the old l[d]; if d is out of range, l is unchanged and a is returned *)
Fixpoint swap_far (d : nat) (a : Z) (l : list Z) {struct l} : Z * list Z :=
  match l with
  | [] => (a, [])
  | x :: r =>
      match d with
      | O => (x, a :: r)
      | S d' => let '(b, r') := swap_far d' a r in (b, x :: r')
      end
  end.

(* exchange l[lo] and l[lo + d] *)
Fixpoint swap_at (lo d : nat) (l : list Z) {struct l} : list Z :=
  match l with
  | [] => []
  | x :: r =>
      match lo with
      | O =>
          match d with
          | O => l
          | S d' => let '(b, r') := swap_far d' x r in b :: r'
          end
      | S lo' => x :: swap_at lo' d r
      end
  end.

Definition swap (i j : nat) (l : list Z) : list Z :=
  if Nat.leb i j then swap_at i (j - i) l else swap_at j (i - j) l.

(* ---------- key scheduling ---------- *)

Definition init_state : list Z := map Z.of_nat (seq 0 256).

(* i counts up from its initial value; krest is the not yet consumed part of the current
   pass over the key *)
Fixpoint ksa_loop (fuel i : nat) (j : Z) (key krest : bytes) (s : list Z) : list Z :=
  match fuel with
  | O => s
  | S f =>
      let '(kb, krest') :=
        match krest with
        | k :: kr => (k, kr)
        | [] => match key with k :: kr => (k, kr) | [] => (0, []) end
        end in
      let j' := Z.land (j + nth i s 0 + kb) 255 in
      ksa_loop f (S i) j' key krest' (swap i (Z.to_nat j') s)
  end.

Definition rc4_ksa (key : bytes) : list Z := ksa_loop 256 0 0 key key init_state.

(* ---------- output generation, xored into the data ---------- *)

Fixpoint rc4_prga (data : bytes) (i j : Z) (s : list Z) : bytes :=
  match data with
  | [] => []
  | d :: r =>
      let i' := Z.land (i + 1) 255 in
      let ni := Z.to_nat i' in
      let si := nth ni s 0 in
      let j' := Z.land (j + si) 255 in
      let nj := Z.to_nat j' in
      let sj := nth nj s 0 in
      let s' := swap ni nj s in
      let k := nth (Z.to_nat (Z.land (si + sj) 255)) s' 0 in
      Z.lxor d k :: rc4_prga r i' j' s'
  end.

Definition rc4 (key data : bytes) : bytes := rc4_prga data 0 0 (rc4_ksa key).

Lemma rc4_prga_length data i j s : length (rc4_prga data i j s) = length data.
Proof.
  revert i j s; induction data as [|d r IH]; intros i j s; cbn [rc4_prga length]; [reflexivity|].
  now rewrite IH.
Qed.

Theorem rc4_length k d : length (rc4 k d) = length d.
Proof. apply rc4_prga_length. Qed.

Lemma swap_far_length d a l : length (snd (swap_far d a l)) = length l.
Proof.
  revert d; induction l as [|x r IH]; intros d; [reflexivity|].
  destruct d as [|d']; cbn [swap_far]; [reflexivity|].
  specialize (IH d'). destruct (swap_far d' a r) as [b r']. cbn in *. now rewrite IH.
Qed.

Lemma swap_at_length lo d l : length (swap_at lo d l) = length l.
Proof.
  revert lo; induction l as [|x r IH]; intros lo; [reflexivity|].
  destruct lo as [|lo']; cbn [swap_at].
  - destruct d as [|d']; [reflexivity|].
    pose proof (swap_far_length d' x r) as H. destruct (swap_far d' x r) as [b r']. cbn in *. now rewrite H.
  - cbn. now rewrite IH.
Qed.

Lemma swap_length i j l : length (swap i j l) = length l.
Proof. unfold swap. destruct (Nat.leb i j); apply swap_at_length. Qed.

Lemma ksa_loop_length fuel i j key krest s :
  length (ksa_loop fuel i j key krest s) = length s.
Proof.
  revert i j krest s; induction fuel as [|f IH]; intros i j krest s; [reflexivity|].
  cbn [ksa_loop].
  destruct (match krest with
            | k :: kr => (k, kr)
            | [] => match key with k :: kr => (k, kr) | [] => (0, []) end
            end) as [kb krest'].
  rewrite IH. apply swap_length.
Qed.

Lemma rc4_ksa_length key : length (rc4_ksa key) = 256%nat.
Proof. unfold rc4_ksa. rewrite ksa_loop_length. reflexivity. Qed.

(* swap on a sample: both argument orders, equal indices, end points, out-of-range index
   (list unchanged) *)
Example swap_example :
  swap 1 3 [10; 11; 12; 13; 14] = [10; 13; 12; 11; 14] /\
  swap 3 1 [10; 11; 12; 13; 14] = [10; 13; 12; 11; 14] /\
  swap 2 2 [10; 11; 12; 13; 14] = [10; 11; 12; 13; 14] /\
  swap 0 4 [10; 11; 12; 13; 14] = [14; 11; 12; 13; 10] /\
  swap 1 7 [10; 11; 12; 13; 14] = [10; 11; 12; 13; 14].
Proof. repeat split. Qed.

(* RFC 6229, key 0x0102030405, keystream offset 0 *)
Example rc4_rfc6229_40 :
  rc4 [1; 2; 3; 4; 5] (repeatz 0 16)
  = [0xb2;0x39;0x63;0x05;0xf0;0x3d;0xc0;0x27;0xcc;0xc3;0x52;0x4a;0x0a;0x11;0x18;0xa8].
Proof. vm_compute. reflexivity. Qed.
