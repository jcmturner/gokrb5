(* Gokrb5.prim.AESInverse — the inverse cipher of Gokrb5.prim.AES undoes the cipher: for any list of well-formed
   round keys (any number, of any lengths) on well-formed 16-byte blocks (aes_decrypt_encrypt_rks), hence, the key
   schedule of a well-formed key being well-formed (aes_expand_key_wf), for every well-formed key
   (aes_decrypt_encrypt_rk).  Well-formedness of the key cannot be dropped: aes_needs_wf_key. *)
From Gokrb5.lib Require Import Bytes.
From Gokrb5.prim Require Import CBC AES.
From Coq Require Import Ring.

Definition isbyte (b : Z) : Prop := 0 <= b < 256.

(* two xors of the same atoms up to order and cancelling pairs are equal: bit by bit, in the boolean ring *)
Ltac xor_cancel :=
  apply Z.bits_inj'; intros ?n _; rewrite !Z.lxor_spec; ring.

(* multiplication by x is additive on GF(2^8): a shift, which distributes over xor, then a reduction that
   depends on bit 7 alone *)
Lemma xtime_lxor a b : isbyte a -> isbyte b -> xtime (Z.lxor a b) = Z.lxor (xtime a) (xtime b).
Proof.
  intros Ha Hb. rewrite !xtime_shift by (assumption || now apply lxor_byte).
  rewrite Z.shiftl_lxor, Z.lxor_spec.
  destruct (Z.testbit a 7), (Z.testbit b 7); cbn [xorb]; rewrite ?Z.lxor_0_r; xor_cancel.
Qed.

Lemma lxor_isbyte a b : isbyte a -> isbyte b -> isbyte (Z.lxor a b).
Proof. apply lxor_byte. Qed.
Lemma xtime_isbyte a : isbyte a -> isbyte (xtime a).
Proof. apply xtime_range. Qed.

Create HintDb aesb.
#[local] Hint Resolve lxor_isbyte xtime_isbyte : aesb.

Lemma wf_cons a l : wf_bytes (a :: l) <-> isbyte a /\ wf_bytes l.
Proof. apply Forall_cons_iff. Qed.

(* split every hypothesis wf_bytes (a :: l) into isbyte a and wf_bytes l *)
Ltac wf_split :=
  repeat match goal with
         | H : wf_bytes (_ :: _) |- _ => apply wf_cons in H; destruct H
         end.

Lemma list_ind4 (P : bytes -> Prop) :
  P [] -> (forall a, P [a]) -> (forall a b, P [a; b]) -> (forall a b c, P [a; b; c]) ->
  (forall a b c d r, P r -> P (a :: b :: c :: d :: r)) -> forall s, P s.
Proof.
  intros H0 H1 H2 H3 H4. fix IH 1.
  intros [|a [|b [|c [|d r]]]]; [apply H0 | apply H1 | apply H2 | apply H3 | apply H4, IH].
Qed.

Lemma add_round_key_wf s rk : wf_bytes s -> wf_bytes rk -> wf_bytes (add_round_key s rk).
Proof.
  intros Hs; revert rk; induction Hs as [|x s Hx Hs IH]; intros rk Hrk; cbn [add_round_key].
  - constructor.
  - destruct Hrk as [|k rk Hk Hrk].
    + constructor; [exact Hx | apply IH; constructor].
    + constructor; [apply lxor_byte; assumption | apply IH, Hrk].
Qed.

Lemma sub_bytes_wf s : wf_bytes s -> wf_bytes (sub_bytes s).
Proof.
  induction 1 as [|x s Hx Hs IH]; cbn [sub_bytes map]; constructor;
    [apply sub_byte_range, Hx | exact IH].
Qed.

Lemma shift_rows_wf s : length s = 16%nat -> wf_bytes s -> wf_bytes (shift_rows s).
Proof.
  intros H Hw. list16 s H. cbn [shift_rows]. wf_split.
  repeat (apply wf_cons; split; [assumption|]). constructor.
Qed.

Lemma mix_columns_wf s : wf_bytes s -> wf_bytes (mix_columns s).
Proof.
  induction s as [| | | |a b c d r IH] using list_ind4; intros Hw; cbn [mix_columns]; try exact Hw.
  wf_split. repeat (apply wf_cons; split; [auto 8 with aesb|]). auto.
Qed.

(* unconditional: Z.lxor is nilpotent on all of Z, and a short round key leaves the tail alone *)
Lemma add_round_key_involutive s rk : add_round_key (add_round_key s rk) rk = s.
Proof.
  revert rk; induction s as [|x s IH]; intros rk; [reflexivity|].
  destruct rk as [|k rk]; cbn [add_round_key]; rewrite IH; [reflexivity|].
  now rewrite lxor_cancel_r.
Qed.

Lemma inv_sub_bytes_sub_bytes s : wf_bytes s -> inv_sub_bytes (sub_bytes s) = s.
Proof.
  induction 1 as [|x s Hx Hs IH]; [reflexivity|].
  unfold sub_bytes, inv_sub_bytes in *. cbn [map]. now rewrite IH, inv_sub_byte_sub_byte.
Qed.

Lemma inv_shift_rows_shift_rows s : length s = 16%nat -> inv_shift_rows (shift_rows s) = s.
Proof. intros H. list16 s H. reflexivity. Qed.

(* The column identity.  After pushing xtime through every xor (xtime_lxor) both sides are xors of
   the atoms xtime^k a_i (k <= 4); the products 0e*02, 0b*01, 0d*01, 09*03, ... all have degree
   below 8, so no reduction is involved and the atoms cancel in pairs.  The cancellation is done
   bit by bit in the boolean ring (xorb, andb). *)
Lemma inv_mix_mix_column a0 a1 a2 a3 r :
  isbyte a0 -> isbyte a1 -> isbyte a2 -> isbyte a3 ->
  inv_mix_columns (mix_columns (a0 :: a1 :: a2 :: a3 :: r))
  = a0 :: a1 :: a2 :: a3 :: inv_mix_columns (mix_columns r).
Proof.
  intros H0 H1 H2 H3. cbn [mix_columns inv_mix_columns].
  repeat rewrite xtime_lxor by auto 12 with aesb.
  set (x0 := xtime a0); set (y0 := xtime x0); set (z0 := xtime y0); set (w0 := xtime z0).
  set (x1 := xtime a1); set (y1 := xtime x1); set (z1 := xtime y1); set (w1 := xtime z1).
  set (x2 := xtime a2); set (y2 := xtime x2); set (z2 := xtime y2); set (w2 := xtime z2).
  set (x3 := xtime a3); set (y3 := xtime x3); set (z3 := xtime y3); set (w3 := xtime z3).
  f_equal; [xor_cancel|]. f_equal; [xor_cancel|]. f_equal; [xor_cancel|]. f_equal. xor_cancel.
Qed.

Lemma inv_mix_columns_mix_columns s : wf_bytes s -> inv_mix_columns (mix_columns s) = s.
Proof.
  induction s as [| | | |a b c d r IH] using list_ind4; intros Hw; try reflexivity.
  wf_split. rewrite inv_mix_mix_column by assumption. now rewrite IH.
Qed.

Definition st (s : bytes) : Prop := length s = 16%nat /\ wf_bytes s.

Lemma st_ark s k : st s -> wf_bytes k -> st (add_round_key s k).
Proof. intros [H W] Hk. split; [now rewrite add_round_key_length | now apply add_round_key_wf]. Qed.
Lemma st_sb s : st s -> st (sub_bytes s).
Proof. intros [H W]. split; [now rewrite sub_bytes_length | now apply sub_bytes_wf]. Qed.
Lemma st_sr s : st s -> st (shift_rows s).
Proof. intros [H W]. split; [now rewrite shift_rows_length | now apply shift_rows_wf]. Qed.
Lemma st_mc s : st s -> st (mix_columns s).
Proof. intros [H W]. split; [now apply mix_columns_length16 | now apply mix_columns_wf]. Qed.

Lemma inv_sb_sr s : st s -> inv_sub_bytes (inv_shift_rows (shift_rows (sub_bytes s))) = s.
Proof.
  intros [H W]. rewrite inv_shift_rows_shift_rows by now rewrite sub_bytes_length.
  now apply inv_sub_bytes_sub_bytes.
Qed.

Lemma enc_rounds_cons k rest s :
  rest <> [] ->
  enc_rounds (k :: rest) s = enc_rounds rest (add_round_key (mix_columns (shift_rows (sub_bytes s))) k).
Proof. destruct rest; [congruence | reflexivity]. Qed.

Lemma dec_rounds_cons k rest s :
  rest <> [] ->
  dec_rounds (k :: rest) s
  = dec_rounds rest (inv_mix_columns (add_round_key (inv_sub_bytes (inv_shift_rows s)) k)).
Proof. destruct rest; [congruence | reflexivity]. Qed.

(* Encryption rounds with keys body ++ [kn], then the decryption rounds for kn, rev body and
   whatever keys tl remain, leave the decryption of ShiftRows (SubBytes s) with the keys tl. *)
Lemma dec_enc_rounds body kn : forall s tl,
  Forall wf_bytes body -> wf_bytes kn -> st s -> tl <> [] ->
  dec_rounds (rev body ++ tl) (add_round_key (enc_rounds (body ++ [kn]) s) kn)
  = dec_rounds tl (shift_rows (sub_bytes s)).
Proof.
  induction body as [|k1 body IH]; intros s tl Hb Hkn Hs Htl.
  - cbn [rev app enc_rounds]. now rewrite add_round_key_involutive.
  - apply Forall_cons_iff in Hb. destruct Hb as [Hk1 Hb].
    cbn [rev app]. rewrite enc_rounds_cons by (destruct body; discriminate).
    rewrite <- app_assoc. cbn [app].
    assert (st (shift_rows (sub_bytes s))) as Hr by auto using st_sr, st_sb.
    assert (st (mix_columns (shift_rows (sub_bytes s)))) as Hm by now apply st_mc.
    rewrite IH; [|assumption|assumption|now apply st_ark|discriminate].
    rewrite dec_rounds_cons by exact Htl.
    rewrite inv_sb_sr by now apply st_ark.
    rewrite add_round_key_involutive.
    now rewrite inv_mix_columns_mix_columns by apply Hr.
Qed.

(* Any number of round keys, of any lengths, as long as they consist of bytes. *)
Theorem aes_decrypt_encrypt_rks rks blk :
  Forall wf_bytes rks -> length blk = 16%nat -> wf_bytes blk ->
  aes_decrypt_rk rks (aes_encrypt_rk rks blk) = blk.
Proof.
  intros Hrks Hl Hw. destruct rks as [|k0 rest]; [reflexivity|].
  apply Forall_cons_iff in Hrks. destruct Hrks as [Hk0 Hrest].
  assert (st (add_round_key blk k0)) as Hs0 by (apply st_ark; [split|]; assumption).
  unfold aes_decrypt_rk, aes_encrypt_rk.
  destruct rest as [|k1 rest'] using rev_ind.
  - cbn [rev app enc_rounds dec_rounds]. apply add_round_key_involutive.
  - clear IHrest'. apply Forall_app in Hrest. destruct Hrest as [Hbody Hkn].
    apply Forall_cons_iff in Hkn. destruct Hkn as [Hkn _].
    cbn [rev]. rewrite rev_app_distr. cbn [rev app].
    rewrite dec_enc_rounds by (assumption || discriminate).
    cbn [dec_rounds]. rewrite inv_sb_sr by exact Hs0. apply add_round_key_involutive.
Qed.

Lemma nth_wf n (ws : list bytes) : Forall wf_bytes ws -> wf_bytes (nth n ws []).
Proof.
  intros H. destruct (nth_in_or_default n ws []) as [Hin | ->]; [|constructor].
  rewrite Forall_forall in H. now apply H.
Qed.

Lemma hd_wf (ws : list bytes) : Forall wf_bytes ws -> wf_bytes (hd [] ws).
Proof. destruct 1; [constructor | assumption]. Qed.

Lemma sub_word_wf w : wf_bytes w -> wf_bytes (sub_word w).
Proof. apply sub_bytes_wf. Qed.

Lemma rot_word_wf w : wf_bytes w -> wf_bytes (rot_word w).
Proof.
  destruct w as [|a r]; intros H; [constructor|]. cbn [rot_word].
  apply wf_cons in H. destruct H as [Ha Hr]. apply wf_bytes_app. split; [exact Hr | now constructor].
Qed.

Lemma xor_rcon_wf w rc : wf_bytes w -> isbyte rc -> wf_bytes (xor_rcon w rc).
Proof.
  destruct w as [|a r]; intros H Hrc; [constructor|]. cbn [xor_rcon].
  apply wf_cons in H. destruct H as [Ha Hr]. constructor; [now apply lxor_byte | exact Hr].
Qed.

Lemma expand_loop_wf fuel : forall nk j rc ws,
  isbyte rc -> Forall wf_bytes ws -> Forall wf_bytes (expand_loop fuel nk j rc ws).
Proof.
  induction fuel as [|f IH]; intros nk j rc ws Hrc Hws; cbn [expand_loop]; [exact Hws|].
  apply IH.
  - destruct (Nat.eqb j 0); [now apply xtime_range | exact Hrc].
  - constructor; [|exact Hws]. apply xor_bytes_wf; [now apply nth_wf|].
    destruct (Nat.eqb j 0).
    + apply xor_rcon_wf; [|exact Hrc]. now apply sub_word_wf, rot_word_wf, hd_wf.
    + destruct (Nat.eqb nk 8 && Nat.eqb j 4); [apply sub_word_wf|]; now apply hd_wf.
Qed.

Lemma expand_words_wf nk total key : wf_bytes key -> Forall wf_bytes (expand_words nk total key).
Proof.
  intros H. unfold expand_words. apply chunks_wf, concat_wf, Forall_rev, expand_loop_wf.
  - unfold isbyte; lia.
  - now apply Forall_rev, chunks_wf.
Qed.

Theorem aes_expand_key_wf key : wf_bytes key -> Forall wf_bytes (aes_expand_key key).
Proof.
  intros H. unfold aes_expand_key.
  destruct (Nat.eqb (length key) 16); [now apply expand_words_wf|].
  destruct (Nat.eqb (length key) 32); [now apply expand_words_wf | constructor].
Qed.

(* No hypothesis on the length of the key: for lengths other than 16 and 32 the schedule is empty
   and both directions are the identity. *)
Theorem aes_decrypt_encrypt_rk : forall key blk,
  wf_bytes key -> length blk = 16%nat -> wf_bytes blk ->
  AES.aes_decrypt_rk (AES.aes_expand_key key) (AES.aes_encrypt_rk (AES.aes_expand_key key) blk) = blk.
Proof. intros key blk Hk Hl Hw. apply aes_decrypt_encrypt_rks; [now apply aes_expand_key_wf | exact Hl | exact Hw]. Qed.

Corollary aes_decrypt_encrypt_block key blk :
  wf_bytes key -> length blk = 16%nat -> wf_bytes blk ->
  aes_decrypt_block key (aes_encrypt_block key blk) = blk.
Proof. apply aes_decrypt_encrypt_rk. Qed.

(* [wf_bytes key] is necessary: with the value 256 in the key, byte 0 of the state after the first
   AddRoundKey is >= 256, SubBytes maps it to 0 (row index out of the table), and the first
   plaintext byte is lost. *)
Example aes_needs_wf_key :
  let key := 256 :: repeatz 0 15 in
  let blk := 1 :: repeatz 0 15 in
  length key = 16%nat /\ length blk = 16%nat /\ wf_bytes blk /\
  aes_decrypt_rk (aes_expand_key key) (aes_encrypt_rk (aes_expand_key key) blk) <> blk.
Proof.
  cbv zeta. split; [reflexivity|]. split; [reflexivity|]. split.
  - cbn [repeatz]. repeat (constructor; [lia|]). constructor.
  - intros H. apply beq_bytes_eq in H. vm_compute in H. discriminate H.
Qed.

Print Assumptions aes_decrypt_encrypt_rks.
Print Assumptions aes_decrypt_encrypt_rk.
