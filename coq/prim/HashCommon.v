(* Gokrb5.prim.HashCommon — word-level helpers shared by the Merkle-Damgard hashes
   (SHA-1, SHA-2, MD4, MD5): masks, modular addition, rotations, word <-> byte codecs,
   message padding and block chunking.  Everything is on Z; nat is used only for list
   lengths / fuel. *)
From Gokrb5.lib Require Import Bytes.
Open Scope Z_scope.

Definition mask32 : Z := 0xFFFFFFFF.
Definition mask64 : Z := 0xFFFFFFFFFFFFFFFF.

Definition trunc32 (x : Z) : Z := Z.land x mask32.
Definition trunc64 (x : Z) : Z := Z.land x mask64.
Definition add32 (x y : Z) : Z := Z.land (x + y) mask32.
Definition add64 (x y : Z) : Z := Z.land (x + y) mask64.

(* rotations of a w-bit word (0 <= x < 2^w, 0 < n < w) *)
Definition rotl32 (x n : Z) : Z := Z.lor (Z.land (Z.shiftl x n) mask32) (Z.shiftr x (32 - n)).
Definition rotr32 (x n : Z) : Z := Z.lor (Z.shiftr x n) (Z.land (Z.shiftl x (32 - n)) mask32).
Definition rotr64 (x n : Z) : Z := Z.lor (Z.shiftr x n) (Z.land (Z.shiftl x (64 - n)) mask64).

(* ---------- word <-> bytes ---------- *)

Definition be32_of (a b c d : Z) : Z := Z.shiftl a 24 + Z.shiftl b 16 + Z.shiftl c 8 + d.
Definition le32_of (a b c d : Z) : Z := a + Z.shiftl b 8 + Z.shiftl c 16 + Z.shiftl d 24.

(* parse a byte string into 32-bit words; a trailing fragment of < 4 bytes is dropped
   (padded messages never have one) *)
Fixpoint be32s (l : bytes) : list Z :=
  match l with
  | a :: b :: c :: d :: r => be32_of a b c d :: be32s r
  | _ => []
  end.

Fixpoint le32s (l : bytes) : list Z :=
  match l with
  | a :: b :: c :: d :: r => le32_of a b c d :: le32s r
  | _ => []
  end.

Fixpoint be64s (l : bytes) : list Z :=
  match l with
  | a :: b :: c :: d :: e :: f :: g :: h :: r =>
      (Z.shiftl (be32_of a b c d) 32 + be32_of e f g h) :: be64s r
  | _ => []
  end.

Definition be32_bytes (w : Z) : bytes :=
  [Z.land (Z.shiftr w 24) 255; Z.land (Z.shiftr w 16) 255; Z.land (Z.shiftr w 8) 255; Z.land w 255].
Definition le32_bytes (w : Z) : bytes :=
  [Z.land w 255; Z.land (Z.shiftr w 8) 255; Z.land (Z.shiftr w 16) 255; Z.land (Z.shiftr w 24) 255].
Definition be64_bytes (w : Z) : bytes := be32_bytes (Z.shiftr w 32) ++ be32_bytes w.

(* ---------- padding and chunking ---------- *)

(* number of zero bytes between the 0x80 marker and the length field *)
Definition pad_zeros (blk lenfield n : Z) : nat := Z.to_nat ((blk - 1 - lenfield - n) mod blk).

(* 64-byte block, 8-byte big-endian bit length (SHA-1, SHA-256) *)
Definition pad64_be (m : bytes) : bytes :=
  let n := zlen m in m ++ 0x80 :: repeatz 0 (pad_zeros 64 8 n) ++ be_bytes 8 (8 * n).
(* 64-byte block, 8-byte little-endian bit length (MD4, MD5) *)
Definition pad64_le (m : bytes) : bytes :=
  let n := zlen m in m ++ 0x80 :: repeatz 0 (pad_zeros 64 8 n) ++ le_bytes 8 (8 * n).
(* 128-byte block, 16-byte big-endian bit length (SHA-384, SHA-512) *)
Definition pad128_be (m : bytes) : bytes :=
  let n := zlen m in m ++ 0x80 :: repeatz 0 (pad_zeros 128 16 n) ++ be_bytes 16 (8 * n).

(* split into consecutive chunks of n elements (the last may be shorter); fuel >= length l / n *)
Fixpoint chunks_fuel {A} (n : nat) (fuel : nat) (l : list A) : list (list A) :=
  match fuel with
  | O => []
  | S f => match l with
           | [] => []
           | _ => firstn n l :: chunks_fuel n f (skipn n l)
           end
  end.
Definition chunks {A} (n : nat) (l : list A) : list (list A) := chunks_fuel n (length l) l.

(* nth with a Z default, for building permuted message schedules once per block *)
Definition pick (blk : list Z) (i : nat) : Z := nth i blk 0.

Lemma flat_map_length_const {A B} (f : A -> list B) (n : nat) (l : list A) :
  (forall a, length (f a) = n) -> length (flat_map f l) = (length l * n)%nat.
Proof.
  intros H. induction l as [|a l IH]; cbn [flat_map length]; [reflexivity|].
  rewrite app_length, H, IH. lia.
Qed.

Lemma be32_bytes_length w : length (be32_bytes w) = 4%nat.
Proof. reflexivity. Qed.
Lemma le32_bytes_length w : length (le32_bytes w) = 4%nat.
Proof. reflexivity. Qed.
Lemma be64_bytes_length w : length (be64_bytes w) = 8%nat.
Proof. reflexivity. Qed.

Lemma land_255 x : Z.land x 255 = x mod 256.
Proof. change 255 with (Z.ones 8). rewrite Z.land_ones by lia. reflexivity. Qed.

(* the fast serializers agree with the generic codecs of Bytes.v (no range condition) *)
Lemma le32_bytes_spec w : le32_bytes w = le_bytes 4 w.
Proof.
  unfold le32_bytes. cbn [le_bytes]. rewrite !land_255, !Z.shiftr_div_pow2 by lia.
  rewrite !Z.div_div by lia. reflexivity.
Qed.

Lemma be32_bytes_spec w : be32_bytes w = be_bytes 4 w.
Proof.
  unfold be_bytes. rewrite <- le32_bytes_spec. reflexivity.
Qed.

Lemma be64_bytes_spec w : be64_bytes w = be_bytes 8 w.
Proof.
  unfold be64_bytes. rewrite !be32_bytes_spec. unfold be_bytes. cbn [le_bytes rev app].
  rewrite Z.shiftr_div_pow2 by lia. rewrite !Z.div_div by lia. reflexivity.
Qed.

Lemma be32_of_spec a b c d : be32_of a b c d = be_val [a; b; c; d].
Proof.
  unfold be32_of, be_val. cbn [be_val_acc]. rewrite !Z.shiftl_mul_pow2 by lia. lia.
Qed.

Lemma le32_of_spec a b c d : le32_of a b c d = le_val [a; b; c; d].
Proof.
  unfold le32_of. cbn [le_val]. rewrite !Z.shiftl_mul_pow2 by lia. lia.
Qed.

Lemma be32_bytes_wf w : wf_bytes (be32_bytes w).
Proof. rewrite be32_bytes_spec. apply be_bytes_wf. Qed.
Lemma le32_bytes_wf w : wf_bytes (le32_bytes w).
Proof. rewrite le32_bytes_spec. apply le_bytes_wf. Qed.
Lemma be64_bytes_wf w : wf_bytes (be64_bytes w).
Proof. rewrite be64_bytes_spec. apply be_bytes_wf. Qed.
