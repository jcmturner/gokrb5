(* Gokrb5.prim.AES — AES-128 / AES-256 block cipher (FIPS 197), executable, over bytes = list Z.

   The state is the 16-byte list in input order, i.e. column-major: element r + 4*c is the
   FIPS state byte s[r,c].  Round keys are 16-byte lists in the same order.
   S-boxes are literal tables laid out as 16 rows of 16 (row = high nibble, column = low
   nibble, exactly FIPS 197 figure 7 / figure 14); [sbox] / [inv_sbox] are the flat 256-entry
   tables and [sub_byte_flat] / [inv_sub_byte_flat] state that the two-level lookup is the flat
   lookup [nth (Z.to_nat b) sbox 0]. *)
From Gokrb5.lib Require Import Bytes.
From Gokrb5.prim Require Import CBC.

Definition sbox_rows : list (list Z) :=
  [ [99; 124; 119; 123; 242; 107; 111; 197; 48; 1; 103; 43; 254; 215; 171; 118];
    [202; 130; 201; 125; 250; 89; 71; 240; 173; 212; 162; 175; 156; 164; 114; 192];
    [183; 253; 147; 38; 54; 63; 247; 204; 52; 165; 229; 241; 113; 216; 49; 21];
    [4; 199; 35; 195; 24; 150; 5; 154; 7; 18; 128; 226; 235; 39; 178; 117];
    [9; 131; 44; 26; 27; 110; 90; 160; 82; 59; 214; 179; 41; 227; 47; 132];
    [83; 209; 0; 237; 32; 252; 177; 91; 106; 203; 190; 57; 74; 76; 88; 207];
    [208; 239; 170; 251; 67; 77; 51; 133; 69; 249; 2; 127; 80; 60; 159; 168];
    [81; 163; 64; 143; 146; 157; 56; 245; 188; 182; 218; 33; 16; 255; 243; 210];
    [205; 12; 19; 236; 95; 151; 68; 23; 196; 167; 126; 61; 100; 93; 25; 115];
    [96; 129; 79; 220; 34; 42; 144; 136; 70; 238; 184; 20; 222; 94; 11; 219];
    [224; 50; 58; 10; 73; 6; 36; 92; 194; 211; 172; 98; 145; 149; 228; 121];
    [231; 200; 55; 109; 141; 213; 78; 169; 108; 86; 244; 234; 101; 122; 174; 8];
    [186; 120; 37; 46; 28; 166; 180; 198; 232; 221; 116; 31; 75; 189; 139; 138];
    [112; 62; 181; 102; 72; 3; 246; 14; 97; 53; 87; 185; 134; 193; 29; 158];
    [225; 248; 152; 17; 105; 217; 142; 148; 155; 30; 135; 233; 206; 85; 40; 223];
    [140; 161; 137; 13; 191; 230; 66; 104; 65; 153; 45; 15; 176; 84; 187; 22] ].
Definition inv_sbox_rows : list (list Z) :=
  [ [82; 9; 106; 213; 48; 54; 165; 56; 191; 64; 163; 158; 129; 243; 215; 251];
    [124; 227; 57; 130; 155; 47; 255; 135; 52; 142; 67; 68; 196; 222; 233; 203];
    [84; 123; 148; 50; 166; 194; 35; 61; 238; 76; 149; 11; 66; 250; 195; 78];
    [8; 46; 161; 102; 40; 217; 36; 178; 118; 91; 162; 73; 109; 139; 209; 37];
    [114; 248; 246; 100; 134; 104; 152; 22; 212; 164; 92; 204; 93; 101; 182; 146];
    [108; 112; 72; 80; 253; 237; 185; 218; 94; 21; 70; 87; 167; 141; 157; 132];
    [144; 216; 171; 0; 140; 188; 211; 10; 247; 228; 88; 5; 184; 179; 69; 6];
    [208; 44; 30; 143; 202; 63; 15; 2; 193; 175; 189; 3; 1; 19; 138; 107];
    [58; 145; 17; 65; 79; 103; 220; 234; 151; 242; 207; 206; 240; 180; 230; 115];
    [150; 172; 116; 34; 231; 173; 53; 133; 226; 249; 55; 232; 28; 117; 223; 110];
    [71; 241; 26; 113; 29; 41; 197; 137; 111; 183; 98; 14; 170; 24; 190; 27];
    [252; 86; 62; 75; 198; 210; 121; 32; 154; 219; 192; 254; 120; 205; 90; 244];
    [31; 221; 168; 51; 136; 7; 199; 49; 177; 18; 16; 89; 39; 128; 236; 95];
    [96; 81; 127; 169; 25; 181; 74; 13; 45; 229; 122; 159; 147; 201; 156; 239];
    [160; 224; 59; 77; 174; 42; 245; 176; 200; 235; 187; 60; 131; 83; 153; 97];
    [23; 43; 4; 126; 186; 119; 214; 38; 225; 105; 20; 99; 85; 33; 12; 125] ].

Definition sbox : list Z := concat sbox_rows.
Definition inv_sbox : list Z := concat inv_sbox_rows.

Definition lookup_rows (rows : list (list Z)) (b : Z) : Z :=
  nth (Z.to_nat (Z.land b 15)) (nth (Z.to_nat (Z.shiftr b 4)) rows []) 0.

Definition sub_byte (b : Z) : Z := lookup_rows sbox_rows b.
Definition inv_sub_byte (b : Z) : Z := lookup_rows inv_sbox_rows b.

(* multiplication by x in GF(2^8) modulo x^8 + x^4 + x^3 + x + 1 (0x11b = 283) *)
Definition xtime (x : Z) : Z :=
  let y := Z.shiftl x 1 in if x <? 128 then y else Z.lxor y 283.

Definition sub_bytes (s : bytes) : bytes := map sub_byte s.
Definition inv_sub_bytes (s : bytes) : bytes := map inv_sub_byte s.

(* s'[r,c] = s[r,(c+r) mod 4] *)
Definition shift_rows (s : bytes) : bytes :=
  match s with
  | [s0; s1; s2; s3; s4; s5; s6; s7; s8; s9; s10; s11; s12; s13; s14; s15] =>
      [s0; s5; s10; s15; s4; s9; s14; s3; s8; s13; s2; s7; s12; s1; s6; s11]
  | _ => s
  end.

(* s'[r,c] = s[r,(c-r) mod 4] *)
Definition inv_shift_rows (s : bytes) : bytes :=
  match s with
  | [s0; s1; s2; s3; s4; s5; s6; s7; s8; s9; s10; s11; s12; s13; s14; s15] =>
      [s0; s13; s10; s7; s4; s1; s14; s11; s8; s5; s2; s15; s12; s9; s6; s3]
  | _ => s
  end.

(* column * (02 03 01 01 / 01 02 03 01 / 01 01 02 03 / 03 01 01 02) *)
Fixpoint mix_columns (s : bytes) : bytes :=
  match s with
  | a0 :: a1 :: a2 :: a3 :: r =>
      let x0 := xtime a0 in let x1 := xtime a1 in let x2 := xtime a2 in let x3 := xtime a3 in
      Z.lxor (Z.lxor x0 (Z.lxor x1 a1)) (Z.lxor a2 a3)
      :: Z.lxor (Z.lxor a0 x1) (Z.lxor (Z.lxor x2 a2) a3)
      :: Z.lxor (Z.lxor a0 a1) (Z.lxor x2 (Z.lxor x3 a3))
      :: Z.lxor (Z.lxor (Z.lxor x0 a0) a1) (Z.lxor a2 x3)
      :: mix_columns r
  | _ => s
  end.

(* column * (0e 0b 0d 09 / 09 0e 0b 0d / 0d 09 0e 0b / 0b 0d 09 0e) *)
Fixpoint inv_mix_columns (s : bytes) : bytes :=
  match s with
  | a0 :: a1 :: a2 :: a3 :: r =>
      let mul (a : Z) : Z * Z * Z * Z :=
        let x2 := xtime a in let x4 := xtime x2 in let x8 := xtime x4 in
        (Z.lxor x8 a,                      (* 09 *)
         Z.lxor (Z.lxor x8 x2) a,          (* 0b *)
         Z.lxor (Z.lxor x8 x4) a,          (* 0d *)
         Z.lxor (Z.lxor x8 x4) x2) in      (* 0e *)
      let '(a0_9, a0_b, a0_d, a0_e) := mul a0 in
      let '(a1_9, a1_b, a1_d, a1_e) := mul a1 in
      let '(a2_9, a2_b, a2_d, a2_e) := mul a2 in
      let '(a3_9, a3_b, a3_d, a3_e) := mul a3 in
      Z.lxor (Z.lxor a0_e a1_b) (Z.lxor a2_d a3_9)
      :: Z.lxor (Z.lxor a0_9 a1_e) (Z.lxor a2_b a3_d)
      :: Z.lxor (Z.lxor a0_d a1_9) (Z.lxor a2_e a3_b)
      :: Z.lxor (Z.lxor a0_b a1_d) (Z.lxor a2_9 a3_e)
      :: inv_mix_columns r
  | _ => s
  end.

(* xor of the state with a round key; has the length of the state whatever the key is *)
Fixpoint add_round_key (s rk : bytes) : bytes :=
  match s with
  | [] => []
  | x :: s' =>
      match rk with
      | [] => x :: add_round_key s' []
      | k :: rk' => Z.lxor x k :: add_round_key s' rk'
      end
  end.

(* ---------- key expansion (FIPS 197 section 5.2) ---------- *)

Definition sub_word (w : bytes) : bytes := map sub_byte w.
Definition rot_word (w : bytes) : bytes := match w with a :: r => r ++ [a] | [] => [] end.
Definition xor_rcon (w : bytes) (rc : Z) : bytes :=
  match w with a :: r => Z.lxor a rc :: r | [] => [] end.

(* ws holds the words computed so far, most recent first; j is (index of the next word) mod nk;
   rc is the current round constant byte. *)
Fixpoint expand_loop (fuel nk j : nat) (rc : Z) (ws : list bytes) : list bytes :=
  match fuel with
  | O => ws
  | S f =>
      let prev := hd [] ws in
      let old := nth (Nat.pred nk) ws [] in
      let temp :=
        if Nat.eqb j 0 then xor_rcon (sub_word (rot_word prev)) rc
        else if Nat.eqb nk 8 && Nat.eqb j 4 then sub_word prev
        else prev in
      let rc' := if Nat.eqb j 0 then xtime rc else rc in
      let j' := if Nat.eqb (S j) nk then O else S j in
      expand_loop f nk j' rc' (xor_bytes old temp :: ws)
  end.

Definition expand_words (nk total : nat) (key : bytes) : list bytes :=
  chunks 16 (concat (rev (expand_loop (total - nk) nk 0 1 (rev (chunks 4 key))))).

Definition aes_expand_key (key : bytes) : list bytes :=
  if Nat.eqb (length key) 16 then expand_words 4 44 key
  else if Nat.eqb (length key) 32 then expand_words 8 60 key
  else [].

(* ---------- cipher / inverse cipher (FIPS 197 sections 5.1, 5.3) ---------- *)

Fixpoint enc_rounds (rks : list bytes) (s : bytes) : bytes :=
  match rks with
  | [] => s
  | rk :: rest =>
      match rest with
      | [] => add_round_key (shift_rows (sub_bytes s)) rk
      | _ :: _ => enc_rounds rest (add_round_key (mix_columns (shift_rows (sub_bytes s))) rk)
      end
  end.

Definition aes_encrypt_rk (rks : list bytes) (blk : bytes) : bytes :=
  match rks with
  | [] => blk
  | rk0 :: rest => enc_rounds rest (add_round_key blk rk0)
  end.

(* rks in decreasing round order *)
Fixpoint dec_rounds (rks : list bytes) (s : bytes) : bytes :=
  match rks with
  | [] => s
  | rk :: rest =>
      match rest with
      | [] => add_round_key (inv_sub_bytes (inv_shift_rows s)) rk
      | _ :: _ =>
          dec_rounds rest (inv_mix_columns (add_round_key (inv_sub_bytes (inv_shift_rows s)) rk))
      end
  end.

Definition aes_decrypt_rk (rks : list bytes) (blk : bytes) : bytes :=
  match rev rks with
  | [] => blk
  | rkn :: rest => dec_rounds rest (add_round_key blk rkn)
  end.

Definition aes_encrypt_block (key blk : bytes) : bytes := aes_encrypt_rk (aes_expand_key key) blk.
Definition aes_decrypt_block (key blk : bytes) : bytes := aes_decrypt_rk (aes_expand_key key) blk.

Definition byte_range : list Z := map Z.of_nat (seq 0 256).

Lemma byte_range_spec b : 0 <= b < 256 -> In b byte_range.
Proof.
  intros H. unfold byte_range. rewrite <- (Z2Nat.id b) by lia.
  apply in_map, in_seq. lia.
Qed.

Lemma forall_bytes (P : Z -> bool) :
  forallb P byte_range = true -> forall b, 0 <= b < 256 -> P b = true.
Proof. intros H b Hb. rewrite forallb_forall in H. apply H, byte_range_spec, Hb. Qed.

Lemma sbox_length : length sbox = 256%nat /\ length inv_sbox = 256%nat.
Proof. split; reflexivity. Qed.

(* everything read off the tables, in one pass over the 256 bytes *)
Definition byte_facts (b : Z) : bool :=
  (sub_byte b =? nth (Z.to_nat b) sbox 0) && (inv_sub_byte b =? nth (Z.to_nat b) inv_sbox 0)
  && (inv_sub_byte (sub_byte b) =? b) && (sub_byte (inv_sub_byte b) =? b)
  && is_byte (sub_byte b) && is_byte (inv_sub_byte b)
  && (xtime b =? Z.lxor (Z.shiftl b 1) (if Z.testbit b 7 then 283 else 0)) && is_byte (xtime b).

Lemma byte_facts_all b : 0 <= b < 256 ->
  sub_byte b = nth (Z.to_nat b) sbox 0 /\ inv_sub_byte b = nth (Z.to_nat b) inv_sbox 0 /\
  inv_sub_byte (sub_byte b) = b /\ sub_byte (inv_sub_byte b) = b /\
  0 <= sub_byte b < 256 /\ 0 <= inv_sub_byte b < 256 /\
  xtime b = Z.lxor (Z.shiftl b 1) (if Z.testbit b 7 then 283 else 0) /\ 0 <= xtime b < 256.
Proof.
  intros Hb. pose proof (forall_bytes byte_facts ltac:(vm_compute; reflexivity) b Hb) as H.
  unfold byte_facts in H. rewrite !andb_true_iff, !Z.eqb_eq in H.
  destruct H as [[[[[[[H1 H2] H3] H4] H5] H6] H7] H8].
  rewrite !is_byte_iff in *. auto 10.
Qed.

Lemma sub_byte_flat b : 0 <= b < 256 -> sub_byte b = nth (Z.to_nat b) sbox 0.
Proof. intros Hb. apply (byte_facts_all b Hb). Qed.

Lemma inv_sub_byte_flat b : 0 <= b < 256 -> inv_sub_byte b = nth (Z.to_nat b) inv_sbox 0.
Proof. intros Hb. apply (byte_facts_all b Hb). Qed.

Lemma inv_sub_byte_sub_byte b : 0 <= b < 256 -> inv_sub_byte (sub_byte b) = b.
Proof. intros Hb. apply (byte_facts_all b Hb). Qed.

Lemma sub_byte_inv_sub_byte b : 0 <= b < 256 -> sub_byte (inv_sub_byte b) = b.
Proof. intros Hb. apply (byte_facts_all b Hb). Qed.

Lemma sub_byte_range b : 0 <= b < 256 -> 0 <= sub_byte b < 256.
Proof. intros Hb. apply (byte_facts_all b Hb). Qed.

Lemma inv_sub_byte_range b : 0 <= b < 256 -> 0 <= inv_sub_byte b < 256.
Proof. intros Hb. apply (byte_facts_all b Hb). Qed.

Lemma xtime_shift b : 0 <= b < 256 -> xtime b = Z.lxor (Z.shiftl b 1) (if Z.testbit b 7 then 283 else 0).
Proof. intros Hb. apply (byte_facts_all b Hb). Qed.

Lemma xtime_range b : 0 <= b < 256 -> 0 <= xtime b < 256.
Proof. intros Hb. apply (byte_facts_all b Hb). Qed.

(* from H : length s = 16, replace s by a literal list of sixteen variables *)
Ltac list16 s H :=
  do 16 (destruct s as [|? s]; [cbn in H; discriminate H|]);
  destruct s; [|cbn in H; discriminate H].

Lemma add_round_key_length s rk : length (add_round_key s rk) = length s.
Proof.
  revert rk; induction s as [|x s IH]; intros rk; [reflexivity|].
  destruct rk; cbn; now rewrite IH.
Qed.

Lemma sub_bytes_length s : length (sub_bytes s) = length s.
Proof. apply map_length. Qed.

Lemma inv_sub_bytes_length s : length (inv_sub_bytes s) = length s.
Proof. apply map_length. Qed.

Lemma shift_rows_length s : length (shift_rows s) = length s.
Proof. do 17 (destruct s as [|? s]; [reflexivity|]). reflexivity. Qed.

Lemma inv_shift_rows_length s : length (inv_shift_rows s) = length s.
Proof. do 17 (destruct s as [|? s]; [reflexivity|]). reflexivity. Qed.

Lemma mix_columns_length16 s : length s = 16%nat -> length (mix_columns s) = 16%nat.
Proof. intros H. list16 s H. reflexivity. Qed.

Lemma inv_mix_columns_length16 s : length s = 16%nat -> length (inv_mix_columns s) = 16%nat.
Proof. intros H. list16 s H. reflexivity. Qed.

Lemma enc_rounds_length rks s : length s = 16%nat -> length (enc_rounds rks s) = 16%nat.
Proof.
  revert s; induction rks as [|rk rest IH]; intros s H; [exact H|].
  cbn [enc_rounds]. destruct rest as [|rk' rest'].
  - now rewrite add_round_key_length, shift_rows_length, sub_bytes_length.
  - apply IH. rewrite add_round_key_length. apply mix_columns_length16.
    now rewrite shift_rows_length, sub_bytes_length.
Qed.

Lemma dec_rounds_length rks s : length s = 16%nat -> length (dec_rounds rks s) = 16%nat.
Proof.
  revert s; induction rks as [|rk rest IH]; intros s H; [exact H|].
  cbn [dec_rounds]. destruct rest as [|rk' rest'].
  - now rewrite add_round_key_length, inv_sub_bytes_length, inv_shift_rows_length.
  - apply IH. apply inv_mix_columns_length16.
    now rewrite add_round_key_length, inv_sub_bytes_length, inv_shift_rows_length.
Qed.

(* unconditional in the round keys *)
Theorem aes_encrypt_rk_length rks blk : length blk = 16%nat -> length (aes_encrypt_rk rks blk) = 16%nat.
Proof.
  intros H. unfold aes_encrypt_rk. destruct rks as [|rk0 rest]; [exact H|].
  apply enc_rounds_length. now rewrite add_round_key_length.
Qed.

Theorem aes_decrypt_rk_length rks blk : length blk = 16%nat -> length (aes_decrypt_rk rks blk) = 16%nat.
Proof.
  intros H. unfold aes_decrypt_rk. destruct (rev rks) as [|rkn rest]; [exact H|].
  apply dec_rounds_length. now rewrite add_round_key_length.
Qed.

Theorem aes_encrypt_block_length key blk :
  length blk = 16%nat -> length (aes_encrypt_block key blk) = 16%nat.
Proof. apply aes_encrypt_rk_length. Qed.

Theorem aes_decrypt_block_length key blk :
  length blk = 16%nat -> length (aes_decrypt_block key blk) = 16%nat.
Proof. apply aes_decrypt_rk_length. Qed.

(* quick self-check: FIPS 197 appendix C.1 *)
Example aes128_c1 :
  aes_encrypt_block (map Z.of_nat (seq 0 16))
    [0x00;0x11;0x22;0x33;0x44;0x55;0x66;0x77;0x88;0x99;0xaa;0xbb;0xcc;0xdd;0xee;0xff]
  = [0x69;0xc4;0xe0;0xd8;0x6a;0x7b;0x04;0x30;0xd8;0xcd;0xb7;0x80;0x70;0xb4;0xc5;0x5a].
Proof. vm_compute. reflexivity. Qed.
