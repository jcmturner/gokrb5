(* Gokrb5.prim.CBC — cipher block chaining over an abstract block function.

   cbc_encrypt enc bs iv data : data is cut into bs-byte blocks (chunks); block i is
   C_i = enc (P_i xor C_{i-1}), C_0 = iv.  The result is the concatenation of the C_i.
   cbc_decrypt dec bs iv data : P_i = dec C_i xor C_{i-1}.

   Data length is assumed to be a multiple of bs.  If it is not, the trailing partial block
   is processed as is: on encryption it is xored with (a prefix of) the previous ciphertext
   block and handed to enc at its short length; on decryption dec is applied to the short
   block and the result is xored with the previous block, truncated to the shorter of the two
   (xor_bytes has the length of its shorter argument).  With bs = 0 every chunk is empty and
   chunks yields [length data] empty blocks. *)
From Gokrb5.lib Require Import Bytes.

Fixpoint xor_bytes (a b : bytes) : bytes :=
  match a, b with
  | x :: a', y :: b' => Z.lxor x y :: xor_bytes a' b'
  | _, _ => []
  end.

(* chunks n l : l cut into consecutive n-element pieces (the last one possibly shorter).
   Fuel is the length of l, which always suffices when 0 < n. *)
Fixpoint chunks_fuel (fuel n : nat) (l : bytes) : list bytes :=
  match fuel with
  | O => []
  | S f =>
      match l with
      | [] => []
      | _ :: _ => firstn n l :: chunks_fuel f n (skipn n l)
      end
  end.

Definition chunks (n : nat) (l : bytes) : list bytes := chunks_fuel (length l) n l.

Fixpoint cbc_enc_blocks (enc : bytes -> bytes) (prev : bytes) (bl : list bytes) : list bytes :=
  match bl with
  | [] => []
  | b :: r => let c := enc (xor_bytes b prev) in c :: cbc_enc_blocks enc c r
  end.

Fixpoint cbc_dec_blocks (dec : bytes -> bytes) (prev : bytes) (bl : list bytes) : list bytes :=
  match bl with
  | [] => []
  | c :: r => xor_bytes (dec c) prev :: cbc_dec_blocks dec c r
  end.

Definition cbc_encrypt (enc : bytes -> bytes) (bs : nat) (iv data : bytes) : bytes :=
  concat (cbc_enc_blocks enc iv (chunks bs data)).

Definition cbc_decrypt (dec : bytes -> bytes) (bs : nat) (iv data : bytes) : bytes :=
  concat (cbc_dec_blocks dec iv (chunks bs data)).

Lemma xor_bytes_length a b : length (xor_bytes a b) = Nat.min (length a) (length b).
Proof.
  revert b; induction a as [|x a IH]; intros [|y b]; cbn; try reflexivity.
  now rewrite IH.
Qed.

Lemma xor_bytes_length_eq a b : length a = length b -> length (xor_bytes a b) = length a.
Proof. intros H. rewrite xor_bytes_length, <- H. apply Nat.min_id. Qed.

Lemma xor_bytes_cancel a b : length a = length b -> xor_bytes (xor_bytes a b) b = a.
Proof.
  revert b; induction a as [|x a IH]; intros [|y b] H; cbn in *; try reflexivity; try discriminate.
  now rewrite IH, lxor_cancel_r by congruence.
Qed.

Lemma xor_bytes_comm a b : xor_bytes a b = xor_bytes b a.
Proof.
  revert b; induction a as [|x a IH]; intros [|y b]; cbn; try reflexivity.
  now rewrite IH, Z.lxor_comm.
Qed.

Lemma xor_bytes_nil_r a : xor_bytes a [] = [].
Proof. destruct a; reflexivity. Qed.

Lemma lxor_byte x y : 0 <= x < 256 -> 0 <= y < 256 -> 0 <= Z.lxor x y < 256.
Proof.
  intros Hx Hy.
  assert (0 <= Z.lxor x y) as Hnn by (apply Z.lxor_nonneg; lia).
  split; [exact Hnn|].
  destruct (Z.eq_dec (Z.lxor x y) 0) as [->|Hz]; [lia|].
  change 256 with (2 ^ 8). apply Z.log2_lt_pow2; [lia|].
  pose proof (Z.log2_lxor x y ltac:(lia) ltac:(lia)) as Hl.
  assert (Z.log2 x < 8).
  { destruct (Z.eq_dec x 0) as [->|]; [cbn; lia|]. apply Z.log2_lt_pow2; [lia|]. cbn; lia. }
  assert (Z.log2 y < 8).
  { destruct (Z.eq_dec y 0) as [->|]; [cbn; lia|]. apply Z.log2_lt_pow2; [lia|]. cbn; lia. }
  lia.
Qed.

Lemma xor_bytes_wf a b : wf_bytes a -> wf_bytes b -> wf_bytes (xor_bytes a b).
Proof.
  intros Ha; revert b; induction Ha as [|x a Hx Ha IH]; intros b Hb; cbn; [constructor|].
  destruct Hb as [|y b Hy Hb]; constructor; [apply lxor_byte; assumption | apply IH, Hb].
Qed.

(* needs 0 < n: with n = 0 every unit of fuel yields an empty chunk *)
Lemma chunks_fuel_enough n : (0 < n)%nat -> forall f1 f2 l,
  (length l <= f1)%nat -> (length l <= f2)%nat -> chunks_fuel f1 n l = chunks_fuel f2 n l.
Proof.
  intros Hn. induction f1 as [|f1 IH]; intros f2 l H1 H2.
  - destruct l; [|cbn in H1; lia]. destruct f2; reflexivity.
  - destruct l as [|x l]; [destruct f2; reflexivity|].
    destruct f2 as [|f2]; [cbn in H2; lia|]. cbn [chunks_fuel]. f_equal.
    cbn [length] in *. apply IH; rewrite skipn_length; cbn [length]; lia.
Qed.

Lemma chunks_cons n x l : (0 < n)%nat ->
  chunks n (x :: l) = firstn n (x :: l) :: chunks n (skipn n (x :: l)).
Proof.
  intros Hn. unfold chunks. cbn [length chunks_fuel]. f_equal.
  apply chunks_fuel_enough; [exact Hn| |]; rewrite skipn_length; cbn [length]; lia.
Qed.

Lemma chunks_ind n (P : bytes -> list bytes -> Prop) :
  (0 < n)%nat -> P [] [] ->
  (forall l, l <> [] -> P (skipn n l) (chunks n (skipn n l)) -> P l (firstn n l :: chunks n (skipn n l))) ->
  forall l, P l (chunks n l).
Proof.
  intros Hn H0 Hs l. remember (length l) as k eqn:Hk. revert l Hk.
  induction k as [k IH] using lt_wf_ind. intros [|x l] Hk; [exact H0|].
  rewrite chunks_cons by exact Hn. apply Hs; [discriminate|].
  apply (IH (length (skipn n (x :: l)))); [|reflexivity].
  rewrite skipn_length, Hk. cbn [length]. lia.
Qed.

Lemma concat_chunks n l : (0 < n)%nat -> concat (chunks n l) = l.
Proof.
  intros Hn. apply (chunks_ind n (fun l c => concat c = l) Hn); [reflexivity|].
  intros l0 _ IH. cbn [concat]. rewrite IH. apply firstn_skipn.
Qed.

Lemma chunks_lengths n k l :
  (0 < n)%nat -> length l = (k * n)%nat -> Forall (fun b => length b = n) (chunks n l).
Proof.
  intros Hn. revert k.
  apply (chunks_ind n (fun l c => forall k, length l = (k * n)%nat -> Forall (fun b => length b = n) c) Hn); [constructor|].
  intros l0 Hne IH [|k] Hk; [destruct l0; [congruence|discriminate]|].
  constructor; [rewrite firstn_length; lia | apply (IH k); rewrite skipn_length; lia].
Qed.

Lemma chunks_app_full n (bl : list bytes) (t : bytes) :
  (0 < n)%nat -> Forall (fun b => length b = n) bl -> chunks n (concat bl ++ t) = bl ++ chunks n t.
Proof.
  intros Hn Hbl. induction Hbl as [|b bl Hb Hbl IH]; [reflexivity|].
  destruct b as [|x b]; [cbn in Hb; lia|].
  cbn [concat]. rewrite <- app_assoc. change ((x :: b) ++ concat bl ++ t) with (x :: (b ++ concat bl ++ t)).
  rewrite chunks_cons by exact Hn. change (x :: b ++ concat bl ++ t) with ((x :: b) ++ concat bl ++ t).
  pose proof (firstn_app_exact (x :: b) (concat bl ++ t)) as F.
  pose proof (skipn_app_exact (x :: b) (concat bl ++ t)) as S.
  rewrite Hb in F, S. rewrite F, S, IH. reflexivity.
Qed.

Lemma chunks_of_concat n (bl : list bytes) :
  (0 < n)%nat -> Forall (fun b => length b = n) bl -> chunks n (concat bl) = bl.
Proof. intros Hn Hbl. rewrite <- (app_nil_r (concat bl)), chunks_app_full by assumption. apply app_nil_r. Qed.

Lemma chunks_short n t : (0 < length t <= n)%nat -> chunks n t = [t].
Proof.
  intros Ht. destruct t as [|x t]; [cbn in Ht; lia|].
  rewrite chunks_cons, firstn_all2, skipn_all2 by lia. reflexivity.
Qed.

Section CBC.
  Variables (enc dec : bytes -> bytes) (bs : nat).
  Hypothesis dec_enc : forall b, length b = bs -> dec (enc b) = b.
  Hypothesis enc_length : forall b, length b = bs -> length (enc b) = bs.

  Lemma cbc_enc_blocks_lengths prev bl :
    length prev = bs -> Forall (fun b => length b = bs) bl ->
    Forall (fun b => length b = bs) (cbc_enc_blocks enc prev bl).
  Proof.
    intros Hp Hbl; revert prev Hp; induction Hbl as [|b bl Hb Hbl IH]; intros prev Hp; cbn.
    - constructor.
    - assert (length (enc (xor_bytes b prev)) = bs) as He
        by (apply enc_length; rewrite xor_bytes_length_eq; congruence).
      constructor; [exact He | apply IH, He].
  Qed.

  Lemma cbc_dec_enc_blocks prev bl :
    length prev = bs -> Forall (fun b => length b = bs) bl ->
    cbc_dec_blocks dec prev (cbc_enc_blocks enc prev bl) = bl.
  Proof.
    intros Hp Hbl; revert prev Hp; induction Hbl as [|b bl Hb Hbl IH]; intros prev Hp; cbn.
    - reflexivity.
    - assert (length (xor_bytes b prev) = bs) as Hx by (rewrite xor_bytes_length_eq; congruence).
      rewrite dec_enc by exact Hx.
      rewrite xor_bytes_cancel by congruence.
      f_equal. apply IH. apply enc_length, Hx.
  Qed.

  Lemma concat_length_const (bl : list bytes) :
    Forall (fun b => length b = bs) bl -> length (concat bl) = (length bl * bs)%nat.
  Proof.
    induction 1 as [|b bl Hb Hbl IH]; cbn; [reflexivity|].
    rewrite app_length, IH, Hb. reflexivity.
  Qed.

  Lemma cbc_enc_blocks_count prev bl : length (cbc_enc_blocks enc prev bl) = length bl.
  Proof. revert prev; induction bl as [|b bl IH]; intros prev; cbn; [reflexivity | now rewrite IH]. Qed.

  Theorem cbc_encrypt_length iv data k :
    (0 < bs)%nat -> length iv = bs -> length data = (k * bs)%nat ->
    length (cbc_encrypt enc bs iv data) = length data.
  Proof.
    intros Hbs Hiv Hk. unfold cbc_encrypt.
    pose proof (chunks_lengths bs k data Hbs Hk) as Hch.
    rewrite (concat_length_const _ (cbc_enc_blocks_lengths iv _ Hiv Hch)).
    rewrite cbc_enc_blocks_count, <- (concat_length_const _ Hch).
    now rewrite concat_chunks.
  Qed.

  Theorem cbc_decrypt_encrypt iv data k :
    (0 < bs)%nat -> length iv = bs -> length data = (k * bs)%nat ->
    cbc_decrypt dec bs iv (cbc_encrypt enc bs iv data) = data.
  Proof.
    intros Hbs Hiv Hk. unfold cbc_decrypt, cbc_encrypt.
    pose proof (chunks_lengths bs k data Hbs Hk) as Hch.
    rewrite chunks_of_concat by (auto using cbc_enc_blocks_lengths).
    rewrite cbc_dec_enc_blocks by assumption.
    now apply concat_chunks.
  Qed.
End CBC.

(* Decryption output length needs only that dec preserves the block length. *)
Lemma cbc_decrypt_length (dec : bytes -> bytes) (bs : nat) iv data k :
  (forall b, length b = bs -> length (dec b) = bs) ->
  (0 < bs)%nat -> length iv = bs -> length data = (k * bs)%nat ->
  length (cbc_decrypt dec bs iv data) = length data.
Proof.
  intros Hdec Hbs Hiv Hk. unfold cbc_decrypt.
  pose proof (chunks_lengths bs k data Hbs Hk) as Hch.
  rewrite <- (concat_chunks bs data Hbs) at 2.
  revert iv Hiv. induction Hch as [|c bl Hc Hbl IH]; intros iv Hiv; cbn; [reflexivity|].
  rewrite !app_length, (IH c Hc), xor_bytes_length_eq by (rewrite Hdec; congruence).
  rewrite Hdec by exact Hc. congruence.
Qed.

Lemma chunks_wf n l : wf_bytes l -> Forall wf_bytes (chunks n l).
Proof.
  unfold chunks. generalize (length l) as f. intros f; revert l.
  induction f as [|f IH]; intros l H; cbn [chunks_fuel]; [constructor|].
  destruct l as [|x l]; constructor; [now apply wf_firstn | now apply IH, wf_skipn].
Qed.

(* The executable AES model is inverted by its inverse cipher on well-formed blocks only (its S-box look-up
   collapses out-of-range values), so the round trips below are stated over such blocks. *)
Definition blk (n : nat) (b : bytes) : Prop := length b = n /\ wf_bytes b.

Definition cipher (n : nat) (enc dec : bytes -> bytes) : Prop :=
  forall b, blk n b -> blk n (enc b) /\ dec (enc b) = b.

Lemma cipher_intro n (enc dec : bytes -> bytes) :
  (forall b, length b = n -> wf_bytes b -> dec (enc b) = b) ->
  (forall b, length b = n -> length (enc b) = n) ->
  (forall b, length b = n -> wf_bytes b -> wf_bytes (enc b)) ->
  cipher n enc dec.
Proof. intros Hd Hl Hw b [L W]. split; [split|]; auto. Qed.

Lemma blk_xor n a b : blk n a -> blk n b -> blk n (xor_bytes a b).
Proof. intros [La Wa] [Lb Wb]. split; [rewrite xor_bytes_length_eq; congruence | now apply xor_bytes_wf]. Qed.

Lemma blk_zeros n : blk n (repeatz 0 n).
Proof. split; [apply repeatz_length | apply repeatz_wf]. Qed.

Lemma blks_lengths n (bl : list bytes) : Forall (blk n) bl -> Forall (fun b => length b = n) bl.
Proof. apply Forall_impl. intros b [L _]. exact L. Qed.

Lemma chunks_blk n k l :
  (0 < n)%nat -> length l = (k * n)%nat -> wf_bytes l -> Forall (blk n) (chunks n l).
Proof. intros Hn Hk W. apply Forall_and; [now apply (chunks_lengths n k) | now apply chunks_wf]. Qed.

Section CBCBlocks.
  Variables (enc dec : bytes -> bytes) (n : nat).
  Hypothesis C : cipher n enc dec.

  Lemma cbc_enc_blocks_blk prev bl :
    blk n prev -> Forall (blk n) bl -> Forall (blk n) (cbc_enc_blocks enc prev bl).
  Proof.
    intros Hp Hbl; revert prev Hp; induction Hbl as [|b bl Hb Hbl IH]; intros prev Hp; cbn; constructor.
    - apply C, blk_xor; assumption.
    - apply IH, C, blk_xor; assumption.
  Qed.

  Lemma cbc_dec_enc_blocks_blk prev bl :
    blk n prev -> Forall (blk n) bl -> cbc_dec_blocks dec prev (cbc_enc_blocks enc prev bl) = bl.
  Proof.
    intros Hp Hbl; revert prev Hp; induction Hbl as [|b bl Hb Hbl IH]; intros prev Hp; cbn; [reflexivity|].
    destruct (C _ (blk_xor n b prev Hb Hp)) as [Hc ->].
    rewrite xor_bytes_cancel by (destruct Hb, Hp; congruence).
    f_equal. apply IH, Hc.
  Qed.

  Lemma cbc_encrypt_length_blk iv data k :
    (0 < n)%nat -> blk n iv -> length data = (k * n)%nat -> wf_bytes data ->
    length (cbc_encrypt enc n iv data) = length data.
  Proof.
    intros Hn Hiv Hk W. unfold cbc_encrypt.
    pose proof (chunks_blk n k data Hn Hk W) as Hch.
    rewrite (concat_length_const n) by (auto using blks_lengths, cbc_enc_blocks_blk).
    rewrite cbc_enc_blocks_count, <- (concat_length_const n) by (auto using blks_lengths).
    now rewrite concat_chunks.
  Qed.

  Theorem cbc_decrypt_encrypt_blk iv data k :
    (0 < n)%nat -> blk n iv -> length data = (k * n)%nat -> wf_bytes data ->
    cbc_decrypt dec n iv (cbc_encrypt enc n iv data) = data.
  Proof.
    intros Hn Hiv Hk W. unfold cbc_decrypt, cbc_encrypt.
    pose proof (chunks_blk n k data Hn Hk W) as Hch.
    rewrite chunks_of_concat by (auto using blks_lengths, cbc_enc_blocks_blk).
    rewrite cbc_dec_enc_blocks_blk by assumption.
    now apply concat_chunks.
  Qed.
End CBCBlocks.
