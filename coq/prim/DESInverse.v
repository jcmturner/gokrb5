(* Gokrb5.prim.DESInverse — DES / triple-DES decryption undoes encryption (model Gokrb5.prim.DES).

   The result is unconditional in the subkeys: for any three subkey lists (any Z values, any
   number of rounds) tdes_decrypt_ks undoes tdes_encrypt_ks on well-formed 8-byte blocks, because
     - a Feistel network run with the reversed subkey list undoes itself whatever the round
       function is (Z.lxor is nilpotent on all of Z);
     - the halves stay below 2^32 (des_f ends in a 32-position gather), so the 64-bit join/split
       of the two halves is exact;
     - IP and FP, as executable gathers, are mutually inverse on [0, 2^64): bit-level statement
       proved from two 64-position sweeps over the index lists, lifted with Z.bits_inj';
     - byte <-> integer conversion round-trips on well-formed 8-byte blocks. *)
From Gokrb5.lib Require Import Bytes.
From Gokrb5.prim Require Import DES.

Definition in32 (z : Z) : Prop := 0 <= z < 2 ^ 32.
Definition in64 (z : Z) : Prop := 0 <= z < 2 ^ 64.

Lemma bits_of_bound z w n : 0 <= z < 2 ^ w -> 0 <= w <= n -> Z.testbit z n = false.
Proof.
  intros Hz Hn. rewrite <- (Z.mod_small z (2 ^ w)) by exact Hz. apply Z.mod_pow2_bits_high. exact Hn.
Qed.

Lemma bound_of_bits z w :
  0 <= w -> (forall n, w <= n -> Z.testbit z n = false) -> 0 <= z < 2 ^ w.
Proof.
  intros Hw H. assert (z = z mod 2 ^ w) as E.
  { apply Z.bits_inj'. intros n Hn. destruct (Z.lt_ge_cases n w) as [Hlt|Hge].
    - now rewrite Z.mod_pow2_bits_low by lia.
    - rewrite Z.mod_pow2_bits_high by lia. apply H, Hge. }
  rewrite E. apply Z.mod_pos_bound. apply Z.pow_pos_nonneg; lia.
Qed.

Lemma lxor_in32 a b : in32 a -> in32 b -> in32 (Z.lxor a b).
Proof.
  intros Ha Hb. apply bound_of_bits; [lia|]. intros n Hn.
  rewrite Z.lxor_spec, (bits_of_bound a 32), (bits_of_bound b 32) by (assumption || lia). reflexivity.
Qed.

(* a value below 2^w placed under a value shifted by w: no carries, so or is addition *)
Lemma lor_shiftl_add a b w : 0 <= w -> 0 <= b < 2 ^ w -> Z.lor (Z.shiftl a w) b = a * 2 ^ w + b.
Proof.
  intros Hw Hb.
  assert (Z.land (Z.shiftl a w) b = 0) as E.
  { apply Z.bits_inj'. intros n Hn. rewrite Z.land_spec, Z.bits_0.
    destruct (Z.lt_ge_cases n w) as [Hlt|Hge].
    - now rewrite Z.shiftl_spec_low by lia.
    - rewrite (bits_of_bound b w) by (assumption || lia). apply andb_false_r. }
  rewrite <- Z.lxor_lor, <- Z.add_nocarry_lxor by exact E.
  rewrite Z.shiftl_mul_pow2 by lia. reflexivity.
Qed.

Lemma shl8_lor acc b : 0 <= b < 256 -> Z.lor (Z.shiftl acc 8) (Z.land b 255) = acc * 256 + b.
Proof.
  intros Hb. change 255 with (Z.ones 8). rewrite Z.land_ones, Z.mod_small by (exact Hb || lia).
  apply (lor_shiftl_add acc b 8); [lia | exact Hb].
Qed.

Lemma be_val_fast_eq l : wf_bytes l -> be_val_fast l = be_val l.
Proof.
  unfold be_val_fast, be_val. generalize 0 as acc. intros acc H; revert acc.
  induction H as [|b l Hb Hl IH]; intros acc; [reflexivity|].
  cbn [fold_left be_val_acc]. rewrite shl8_lor by exact Hb. apply IH.
Qed.

Lemma le_bytes_le_val l : wf_bytes l -> le_bytes (length l) (le_val l) = l.
Proof.
  induction 1 as [|x l Hx Hl IH]; [reflexivity|].
  cbn [length le_val le_bytes]. f_equal.
  - rewrite (Z.mul_comm 256), Z.mod_add by lia. apply Z.mod_small, Hx.
  - rewrite (Z.mul_comm 256), Z.div_add by lia. rewrite (Z.div_small x 256) by exact Hx.
    rewrite Z.add_0_l. exact IH.
Qed.

Lemma be_bytes_be_val l : wf_bytes l -> be_bytes (length l) (be_val l) = l.
Proof.
  intros H. unfold be_bytes. rewrite <- (rev_involutive l) at 2. rewrite be_val_rev.
  rewrite <- (rev_length l). rewrite le_bytes_le_val by now apply wf_bytes_rev.
  apply rev_involutive.
Qed.

Lemma be_val_fast_in64 blk : length blk = 8%nat -> wf_bytes blk -> in64 (be_val_fast blk).
Proof.
  intros Hl Hw. rewrite be_val_fast_eq by exact Hw. pose proof (be_val_bound blk Hw) as H.
  unfold zlen in H. rewrite Hl in H. exact H.
Qed.

Lemma be_bytes_fast_be_val_fast blk :
  length blk = 8%nat -> wf_bytes blk -> be_bytes_fast 8 (be_val_fast blk) = blk.
Proof.
  intros Hl Hw. rewrite be_bytes_fast_eq, be_val_fast_eq by exact Hw.
  rewrite <- Hl. now apply be_bytes_be_val.
Qed.

Lemma be_val_fast_be_bytes_fast y : in64 y -> be_val_fast (be_bytes_fast 8 y) = y.
Proof.
  intros Hy. rewrite be_val_fast_eq by apply be_bytes_fast_wf.
  rewrite be_bytes_fast_eq, be_val_be_bytes. apply Z.mod_small. exact Hy.
Qed.

Lemma join_hi r l : in32 l -> Z.shiftr (Z.lor (Z.shiftl r 32) l) 32 = r.
Proof.
  intros Hl. rewrite lor_shiftl_add, Z.shiftr_div_pow2 by (exact Hl || lia).
  rewrite Z.div_add_l, (Z.div_small l) by (exact Hl || lia). lia.
Qed.

Lemma join_lo r l : in32 l -> Z.land (Z.lor (Z.shiftl r 32) l) des_mask32 = l.
Proof.
  intros Hl. change des_mask32 with (Z.ones 32). rewrite lor_shiftl_add, Z.land_ones by (exact Hl || lia).
  rewrite Z.add_comm, Z.mod_add by lia. apply Z.mod_small, Hl.
Qed.

Lemma split_lo_in32 x : in32 (Z.land x des_mask32).
Proof.
  change des_mask32 with (Z.ones 32). rewrite Z.land_ones by lia. apply Z.mod_pos_bound. lia.
Qed.

Lemma split_join x : Z.lor (Z.shiftl (Z.shiftr x 32) 32) (Z.land x des_mask32) = x.
Proof.
  rewrite lor_shiftl_add by (apply split_lo_in32 || lia).
  change des_mask32 with (Z.ones 32). rewrite Z.land_ones, Z.shiftr_div_pow2 by lia.
  rewrite (Z.div_mod x (2 ^ 32)) at 3 by lia. lia.
Qed.

Lemma split_hi_in32 x : in64 x -> in32 (Z.shiftr x 32).
Proof.
  intros Hx. unfold in32. rewrite Z.shiftr_div_pow2 by lia. split.
  - apply Z.div_pos; [apply Hx | lia].
  - apply Z.div_lt_upper_bound; [lia|]. change (2 ^ 32 * 2 ^ 32) with (2 ^ 64). apply Hx.
Qed.

Lemma join_in64 r l : in32 r -> in32 l -> in64 (Z.lor (Z.shiftl r 32) l).
Proof.
  intros Hr Hl. rewrite lor_shiftl_add by (exact Hl || lia). unfold in32, in64 in *.
  change (2 ^ 64) with (2 ^ 32 * 2 ^ 32). nia.
Qed.

Definition gstep (x acc : Z) (i : nat) : Z := if zbit x i then Z.succ_double acc else Z.double acc.

Lemma gstep_bit0 x acc a : Z.testbit (gstep x acc a) 0 = zbit x a.
Proof.
  unfold gstep. destruct (zbit x a).
  - rewrite Z.succ_double_spec. apply Z.testbit_odd_0.
  - rewrite Z.double_spec. apply Z.testbit_even_0.
Qed.

Lemma gstep_bitS x acc a n : 0 <= n -> Z.testbit (gstep x acc a) (Z.succ n) = Z.testbit acc n.
Proof.
  intros Hn. unfold gstep. destruct (zbit x a).
  - rewrite Z.succ_double_spec. now apply Z.testbit_odd_succ.
  - rewrite Z.double_spec. now apply Z.testbit_even_succ.
Qed.

Lemma fold_gstep_testbit x idx : forall acc i,
  Z.testbit (fold_left (gstep x) idx acc) (Z.of_nat i)
  = if (i <? length idx)%nat then zbit x (nth (length idx - 1 - i) idx O)
    else Z.testbit acc (Z.of_nat (i - length idx)).
Proof.
  induction idx as [|a idx IH]; intros acc i.
  - cbn [fold_left length]. destruct (Nat.ltb_spec i 0); [lia|]. now rewrite Nat.sub_0_r.
  - cbn [fold_left length]. rewrite IH.
    destruct (Nat.ltb_spec i (length idx)); destruct (Nat.ltb_spec i (S (length idx))); try lia.
    + replace (S (length idx) - 1 - i)%nat with (S (length idx - 1 - i)) by lia. reflexivity.
    + replace (i - length idx)%nat with O by lia.
      replace (S (length idx) - 1 - i)%nat with O by lia. cbn [nth]. apply gstep_bit0.
    + replace (i - length idx)%nat with (S (i - S (length idx))) by lia.
      rewrite Nat2Z.inj_succ. apply gstep_bitS. lia.
Qed.

(* bit i of gather idx x is the bit of x selected by the i-th index from the end *)
Lemma gather_testbit idx x i :
  Z.testbit (gather idx x) (Z.of_nat i)
  = if (i <? length idx)%nat then zbit x (nth (length idx - 1 - i) idx O) else false.
Proof.
  change (gather idx x) with (fold_left (gstep x) idx 0).
  rewrite fold_gstep_testbit. now rewrite Z.testbit_0_l.
Qed.

Lemma gather_range idx x : 0 <= gather idx x < 2 ^ Z.of_nat (length idx).
Proof.
  apply bound_of_bits; [lia|]. intros n Hn.
  rewrite <- (Z2Nat.id n) by lia. rewrite gather_testbit.
  destruct (Nat.ltb_spec (Z.to_nat n) (length idx)); [lia | reflexivity].
Qed.

(* position i of the outer gather a reads position a[63-i] of the inner result, which reads
   position b[63 - a[63-i]] of the input: that must be i again *)
Definition inv_idx (a b : list nat) : bool :=
  forallb (fun i => (nth (63 - i) a O <? 64)%nat && (nth (63 - nth (63 - i) a O) b O =? i)%nat)
          (seq 0 64).

Lemma gather_inverse a b :
  length a = 64%nat -> length b = 64%nat -> inv_idx a b = true ->
  forall v, in64 v -> gather a (gather b v) = v.
Proof.
  intros Ha Hb Hinv v Hv. apply Z.bits_inj'. intros n Hn.
  rewrite <- (Z2Nat.id n) by exact Hn. set (i := Z.to_nat n).
  rewrite gather_testbit, Ha. change (64 - 1)%nat with 63%nat.
  destruct (Nat.ltb_spec i 64) as [Hlt|Hge].
  - unfold inv_idx in Hinv. rewrite forallb_forall in Hinv.
    specialize (Hinv i ltac:(apply in_seq; lia)).
    apply andb_true_iff in Hinv. destruct Hinv as [H1 H2].
    apply Nat.ltb_lt in H1. apply Nat.eqb_eq in H2.
    rewrite zbit_testbit by apply gather_range.
    rewrite gather_testbit, Hb. change (64 - 1)%nat with 63%nat.
    destruct (Nat.ltb_spec (nth (63 - i) a O) 64); [|lia].
    rewrite H2. apply zbit_testbit, Hv.
  - symmetry. apply (bits_of_bound v 64); [exact Hv | lia].
Qed.

Lemma ip_fp_idx_inverse : inv_idx ip_idx fp_idx = true.
Proof. vm_compute. reflexivity. Qed.
Lemma fp_ip_idx_inverse : inv_idx fp_idx ip_idx = true.
Proof. vm_compute. reflexivity. Qed.

Lemma gather_ip_fp z : in64 z -> gather ip_idx (gather fp_idx z) = z.
Proof. apply gather_inverse; [reflexivity | reflexivity | exact ip_fp_idx_inverse]. Qed.
Lemma gather_fp_ip z : in64 z -> gather fp_idx (gather ip_idx z) = z.
Proof. apply gather_inverse; [reflexivity | reflexivity | exact fp_ip_idx_inverse]. Qed.

Lemma gather_ip_in64 x : in64 (gather ip_idx x).
Proof. exact (gather_range ip_idx x). Qed.
Lemma gather_fp_in64 x : in64 (gather fp_idx x).
Proof. exact (gather_range fp_idx x). Qed.

Lemma des_f_in32 r k : in32 (des_f r k).
Proof. unfold des_f. exact (gather_range p_idx _). Qed.

Lemma des_rounds_app a : forall b l r,
  des_rounds (a ++ b) l r = des_rounds b (fst (des_rounds a l r)) (snd (des_rounds a l r)).
Proof.
  induction a as [|k a IH]; intros b l r; [reflexivity|].
  cbn [app des_rounds]. apply IH.
Qed.

(* whatever the round function computes *)
Lemma des_rounds_rev ks : forall l r,
  des_rounds (rev ks) (snd (des_rounds ks l r)) (fst (des_rounds ks l r)) = (r, l).
Proof.
  induction ks as [|k ks IH]; intros l r; [reflexivity|].
  cbn [rev des_rounds]. rewrite des_rounds_app, IH. cbn [fst snd des_rounds].
  now rewrite lxor_cancel_r.
Qed.

Lemma des_rounds_in32 ks : forall l r,
  in32 l -> in32 r -> in32 (fst (des_rounds ks l r)) /\ in32 (snd (des_rounds ks l r)).
Proof.
  induction ks as [|k ks IH]; intros l r Hl Hr; [split; assumption|].
  cbn [des_rounds]. apply IH; [exact Hr | apply lxor_in32; [exact Hl | apply des_f_in32]].
Qed.

(* the block operation between IP and FP, on 64-bit integers *)
Definition core (ks : list Z) (x : Z) : Z :=
  let lr := des_rounds ks (Z.shiftr x 32) (Z.land x des_mask32) in
  Z.lor (Z.shiftl (snd lr) 32) (fst lr).

Lemma des_crypt_ks_core ks blk :
  des_crypt_ks ks blk = be_bytes_fast 8 (gather fp_idx (core ks (gather ip_idx (be_val_fast blk)))).
Proof.
  unfold des_crypt_ks, core. cbv zeta.
  destruct (des_rounds ks _ _) as [l r]. reflexivity.
Qed.

Lemma core_in64 ks x : in64 x -> in64 (core ks x).
Proof.
  intros Hx. unfold core. cbv zeta.
  destruct (des_rounds_in32 ks _ _ (split_hi_in32 x Hx) (split_lo_in32 x)) as [Hl Hr].
  now apply join_in64.
Qed.

Lemma core_inverse ks x : in64 x -> core (rev ks) (core ks x) = x.
Proof.
  intros Hx. unfold core at 2. cbv zeta.
  destruct (des_rounds_in32 ks _ _ (split_hi_in32 x Hx) (split_lo_in32 x)) as [Hl Hr].
  set (lr := des_rounds ks (Z.shiftr x 32) (Z.land x des_mask32)) in *.
  unfold core. cbv zeta. rewrite join_hi, join_lo by exact Hl.
  unfold lr. rewrite des_rounds_rev. cbn [fst snd]. apply split_join.
Qed.

Lemma des_crypt_ks_rev ks blk :
  length blk = 8%nat -> wf_bytes blk -> des_crypt_ks (rev ks) (des_crypt_ks ks blk) = blk.
Proof.
  intros Hl Hw. rewrite !des_crypt_ks_core.
  rewrite be_val_fast_be_bytes_fast by apply gather_fp_in64.
  rewrite gather_ip_fp by apply core_in64, gather_ip_in64.
  rewrite core_inverse by apply gather_ip_in64.
  rewrite gather_fp_ip by now apply be_val_fast_in64.
  now apply be_bytes_fast_be_val_fast.
Qed.

Theorem des_decrypt_encrypt_ks ks blk :
  length blk = 8%nat -> wf_bytes blk -> des_decrypt_ks ks (des_encrypt_ks ks blk) = blk.
Proof. apply des_crypt_ks_rev. Qed.

Theorem des_encrypt_decrypt_ks ks blk :
  length blk = 8%nat -> wf_bytes blk -> des_encrypt_ks ks (des_decrypt_ks ks blk) = blk.
Proof.
  intros Hl Hw. unfold des_encrypt_ks, des_decrypt_ks.
  rewrite <- (rev_involutive ks) at 1. now apply des_crypt_ks_rev.
Qed.

Theorem tdes_decrypt_encrypt_any ks blk :
  length blk = 8%nat -> wf_bytes blk -> tdes_decrypt_ks ks (tdes_encrypt_ks ks blk) = blk.
Proof.
  intros Hl Hw. destruct ks as [[k1 k2] k3]. unfold tdes_decrypt_ks, tdes_encrypt_ks.
  rewrite des_decrypt_encrypt_ks by (apply des_crypt_ks_length || apply des_crypt_ks_wf).
  rewrite des_encrypt_decrypt_ks by (apply des_crypt_ks_length || apply des_crypt_ks_wf).
  now apply des_decrypt_encrypt_ks.
Qed.

Theorem tdes_encrypt_decrypt_any ks blk :
  length blk = 8%nat -> wf_bytes blk -> tdes_encrypt_ks ks (tdes_decrypt_ks ks blk) = blk.
Proof.
  intros Hl Hw. destruct ks as [[k1 k2] k3]. unfold tdes_decrypt_ks, tdes_encrypt_ks.
  rewrite des_encrypt_decrypt_ks by (apply des_crypt_ks_length || apply des_crypt_ks_wf).
  rewrite des_decrypt_encrypt_ks by (apply des_crypt_ks_length || apply des_crypt_ks_wf).
  now apply des_encrypt_decrypt_ks.
Qed.

(* no hypothesis on the key: any list of any Z values, of any length *)
Theorem tdes_decrypt_encrypt_ks : forall key24 blk,
  length blk = 8%nat -> wf_bytes blk ->
  DES.tdes_decrypt_ks (DES.tdes_expand_key key24) (DES.tdes_encrypt_ks (DES.tdes_expand_key key24) blk) = blk.
Proof. intros key24 blk. apply tdes_decrypt_encrypt_any. Qed.

Corollary tdes_decrypt_encrypt_block key24 blk :
  length blk = 8%nat -> wf_bytes blk -> tdes_decrypt_block key24 (tdes_encrypt_block key24 blk) = blk.
Proof. apply tdes_decrypt_encrypt_ks. Qed.

Corollary des_decrypt_encrypt_block key8 blk :
  length blk = 8%nat -> wf_bytes blk -> des_decrypt_block key8 (des_encrypt_block key8 blk) = blk.
Proof. apply des_decrypt_encrypt_ks. Qed.

Print Assumptions tdes_decrypt_encrypt_ks.
