(* Gokrb5.prim.DES — DES and three-key triple DES (FIPS 46-3 / SP 800-67), executable.

   Blocks, halves and subkeys are Z values; bit 1 of FIPS 46-3 is the most significant bit.
   All permutation tables below are the FIPS tables verbatim (1-based positions counted from
   the most significant bit of the input); [permute w tbl x] applies such a table to the
   w-bit value x, [gather] is its fast executable form.  The S-boxes are the FIPS tables (4 rows of 16).
   Key parity bits (the least significant bit of every key byte) are never selected by PC-1,
   so they are ignored. *)
From Coq Require Import Ndigits.
From Gokrb5.lib Require Import Bytes.

(* ---------- byte / integer conversion by shifts ---------- *)

Definition be_val_fast (l : bytes) : Z :=
  fold_left (fun acc b => Z.lor (Z.shiftl acc 8) (Z.land b 255)) l 0.

Fixpoint le_bytes_fast (n : nat) (z : Z) : bytes :=
  match n with O => [] | S n' => Z.land z 255 :: le_bytes_fast n' (Z.shiftr z 8) end.
Definition be_bytes_fast (n : nat) (z : Z) : bytes := rev (le_bytes_fast n z).

(* ---------- table-driven bit permutation ---------- *)

(* Specification: output bit k (counted from the most significant end) is the bit of the
   w-bit input x at FIPS position tbl[k] (1-based, counted from the most significant end),
   i.e. bit number w - tbl[k] in the usual least-significant-first numbering. *)
Definition permute (w : Z) (tbl : list Z) (x : Z) : Z :=
  fold_left (fun acc p => 2 * acc + Z.b2z (Z.testbit x (w - p))) tbl 0.

(* Executable form.  Bit positions are list-position-like small naturals so that a bit test is
   a plain walk down the binary representation (Pos.testbit_nat); Z.testbit with a binary
   index costs several times more in extracted code.  [gather_permute] below shows that this
   is [permute] on non-negative inputs. *)
Definition zbit (x : Z) (n : nat) : bool :=
  match x with Zpos p => Pos.testbit_nat p n | _ => false end.

Definition bit_indices (w : Z) (tbl : list Z) : list nat := map (fun p => Z.to_nat (w - p)) tbl.

Definition gather (idx : list nat) (x : Z) : Z :=
  fold_left (fun acc i => if zbit x i then Z.succ_double acc else Z.double acc) idx 0.

(* ---------- FIPS 46-3 tables ---------- *)

Definition ip_tbl : list Z :=
  [58; 50; 42; 34; 26; 18; 10; 2;
   60; 52; 44; 36; 28; 20; 12; 4;
   62; 54; 46; 38; 30; 22; 14; 6;
   64; 56; 48; 40; 32; 24; 16; 8;
   57; 49; 41; 33; 25; 17; 9; 1;
   59; 51; 43; 35; 27; 19; 11; 3;
   61; 53; 45; 37; 29; 21; 13; 5;
   63; 55; 47; 39; 31; 23; 15; 7].

Definition fp_tbl : list Z :=
  [40; 8; 48; 16; 56; 24; 64; 32;
   39; 7; 47; 15; 55; 23; 63; 31;
   38; 6; 46; 14; 54; 22; 62; 30;
   37; 5; 45; 13; 53; 21; 61; 29;
   36; 4; 44; 12; 52; 20; 60; 28;
   35; 3; 43; 11; 51; 19; 59; 27;
   34; 2; 42; 10; 50; 18; 58; 26;
   33; 1; 41; 9; 49; 17; 57; 25].

Definition e_tbl : list Z :=
  [32; 1; 2; 3; 4; 5;
   4; 5; 6; 7; 8; 9;
   8; 9; 10; 11; 12; 13;
   12; 13; 14; 15; 16; 17;
   16; 17; 18; 19; 20; 21;
   20; 21; 22; 23; 24; 25;
   24; 25; 26; 27; 28; 29;
   28; 29; 30; 31; 32; 1].

Definition p_tbl : list Z :=
  [16; 7; 20; 21;
   29; 12; 28; 17;
   1; 15; 23; 26;
   5; 18; 31; 10;
   2; 8; 24; 14;
   32; 27; 3; 9;
   19; 13; 30; 6;
   22; 11; 4; 25].

Definition pc1_tbl : list Z :=
  [57; 49; 41; 33; 25; 17; 9;
   1; 58; 50; 42; 34; 26; 18;
   10; 2; 59; 51; 43; 35; 27;
   19; 11; 3; 60; 52; 44; 36;
   63; 55; 47; 39; 31; 23; 15;
   7; 62; 54; 46; 38; 30; 22;
   14; 6; 61; 53; 45; 37; 29;
   21; 13; 5; 28; 20; 12; 4].

Definition pc2_tbl : list Z :=
  [14; 17; 11; 24; 1; 5;
   3; 28; 15; 6; 21; 10;
   23; 19; 12; 4; 26; 8;
   16; 7; 27; 20; 13; 2;
   41; 52; 31; 37; 47; 55;
   30; 40; 51; 45; 33; 48;
   44; 49; 39; 56; 34; 53;
   46; 42; 50; 36; 29; 32].

Definition key_shifts : list Z := [1; 1; 2; 2; 2; 2; 2; 2; 1; 2; 2; 2; 2; 2; 2; 1].

Definition sboxes : list (list (list Z)) :=
  [ (* S1 *)
    [ [14; 4; 13; 1; 2; 15; 11; 8; 3; 10; 6; 12; 5; 9; 0; 7];
      [0; 15; 7; 4; 14; 2; 13; 1; 10; 6; 12; 11; 9; 5; 3; 8];
      [4; 1; 14; 8; 13; 6; 2; 11; 15; 12; 9; 7; 3; 10; 5; 0];
      [15; 12; 8; 2; 4; 9; 1; 7; 5; 11; 3; 14; 10; 0; 6; 13] ];
    (* S2 *)
    [ [15; 1; 8; 14; 6; 11; 3; 4; 9; 7; 2; 13; 12; 0; 5; 10];
      [3; 13; 4; 7; 15; 2; 8; 14; 12; 0; 1; 10; 6; 9; 11; 5];
      [0; 14; 7; 11; 10; 4; 13; 1; 5; 8; 12; 6; 9; 3; 2; 15];
      [13; 8; 10; 1; 3; 15; 4; 2; 11; 6; 7; 12; 0; 5; 14; 9] ];
    (* S3 *)
    [ [10; 0; 9; 14; 6; 3; 15; 5; 1; 13; 12; 7; 11; 4; 2; 8];
      [13; 7; 0; 9; 3; 4; 6; 10; 2; 8; 5; 14; 12; 11; 15; 1];
      [13; 6; 4; 9; 8; 15; 3; 0; 11; 1; 2; 12; 5; 10; 14; 7];
      [1; 10; 13; 0; 6; 9; 8; 7; 4; 15; 14; 3; 11; 5; 2; 12] ];
    (* S4 *)
    [ [7; 13; 14; 3; 0; 6; 9; 10; 1; 2; 8; 5; 11; 12; 4; 15];
      [13; 8; 11; 5; 6; 15; 0; 3; 4; 7; 2; 12; 1; 10; 14; 9];
      [10; 6; 9; 0; 12; 11; 7; 13; 15; 1; 3; 14; 5; 2; 8; 4];
      [3; 15; 0; 6; 10; 1; 13; 8; 9; 4; 5; 11; 12; 7; 2; 14] ];
    (* S5 *)
    [ [2; 12; 4; 1; 7; 10; 11; 6; 8; 5; 3; 15; 13; 0; 14; 9];
      [14; 11; 2; 12; 4; 7; 13; 1; 5; 0; 15; 10; 3; 9; 8; 6];
      [4; 2; 1; 11; 10; 13; 7; 8; 15; 9; 12; 5; 6; 3; 0; 14];
      [11; 8; 12; 7; 1; 14; 2; 13; 6; 15; 0; 9; 10; 4; 5; 3] ];
    (* S6 *)
    [ [12; 1; 10; 15; 9; 2; 6; 8; 0; 13; 3; 4; 14; 7; 5; 11];
      [10; 15; 4; 2; 7; 12; 9; 5; 6; 1; 13; 14; 0; 11; 3; 8];
      [9; 14; 15; 5; 2; 8; 12; 3; 7; 0; 4; 10; 1; 13; 11; 6];
      [4; 3; 2; 12; 9; 5; 15; 10; 11; 14; 1; 7; 6; 0; 8; 13] ];
    (* S7 *)
    [ [4; 11; 2; 14; 15; 0; 8; 13; 3; 12; 9; 7; 5; 10; 6; 1];
      [13; 0; 11; 7; 4; 9; 1; 10; 14; 3; 5; 12; 2; 15; 8; 6];
      [1; 4; 11; 13; 12; 3; 7; 14; 10; 15; 6; 8; 0; 5; 9; 2];
      [6; 11; 13; 8; 1; 4; 10; 7; 9; 5; 0; 15; 14; 2; 3; 12] ];
    (* S8 *)
    [ [13; 2; 8; 4; 6; 15; 11; 1; 10; 9; 3; 14; 5; 0; 12; 7];
      [1; 15; 13; 8; 10; 3; 7; 4; 12; 5; 6; 11; 0; 14; 9; 2];
      [7; 11; 4; 1; 9; 12; 14; 2; 0; 6; 10; 13; 15; 3; 5; 8];
      [2; 1; 14; 7; 4; 10; 8; 13; 15; 12; 9; 0; 3; 5; 6; 11] ] ].

(* index lists, constants computed once *)
Definition ip_idx : list nat := bit_indices 64 ip_tbl.
Definition fp_idx : list nat := bit_indices 64 fp_tbl.
Definition e_idx : list nat := bit_indices 32 e_tbl.
Definition p_idx : list nat := bit_indices 32 p_tbl.
Definition pc1_idx : list nat := bit_indices 64 pc1_tbl.
Definition pc2_idx : list nat := bit_indices 56 pc2_tbl.
Definition sboxes_rev : list (list (list Z)) := rev sboxes.

(* ---------- cipher function f ---------- *)

(* six input bits b1..b6: row = b1 b6, column = b2 b3 b4 b5 *)
Definition sbox_lookup (rows : list (list Z)) (v : Z) : Z :=
  let row := Z.lor (Z.shiftl (Z.shiftr v 5) 1) (Z.land v 1) in
  let col := Z.land (Z.shiftr v 1) 15 in
  nth (Z.to_nat col) (nth (Z.to_nat row) rows []) 0.

(* boxes in the order S8, S7, ..., S1: S8 takes the six least significant bits of x.  The
   4-bit outputs are pushed on acc, so the result lists them in the order S1, ..., S8. *)
Fixpoint sbox_nibbles (boxes : list (list (list Z))) (x : Z) (acc : list Z) : list Z :=
  match boxes with
  | [] => acc
  | b :: r => sbox_nibbles r (Z.shiftr x 6) (sbox_lookup b (Z.land x 63) :: acc)
  end.

(* the 32-bit word S1(B1) S2(B2) ... S8(B8) for the 48-bit x = B1 B2 ... B8 *)
Definition sbox_apply (x : Z) : Z :=
  fold_left (fun a n => Z.lor (Z.shiftl a 4) n) (sbox_nibbles sboxes_rev x []) 0.

Definition des_f (r k : Z) : Z :=
  gather p_idx (sbox_apply (Z.lxor (gather e_idx r) k)).

(* ---------- key schedule ---------- *)

Definition des_mask28 : Z := 268435455.
Definition des_mask32 : Z := 4294967295.

Definition rotl28 (x n : Z) : Z :=
  Z.land (Z.lor (Z.shiftl x n) (Z.shiftr x (28 - n))) des_mask28.

Fixpoint ks_loop (shifts : list Z) (c d : Z) : list Z :=
  match shifts with
  | [] => []
  | n :: r =>
      let c' := rotl28 c n in
      let d' := rotl28 d n in
      gather pc2_idx (Z.lor (Z.shiftl c' 28) d') :: ks_loop r c' d'
  end.

Definition des_expand_key (key8 : bytes) : list Z :=
  let cd := gather pc1_idx (be_val_fast key8) in
  ks_loop key_shifts (Z.shiftr cd 28) (Z.land cd des_mask28).

(* ---------- block operation ---------- *)

Fixpoint des_rounds (ks : list Z) (l r : Z) : Z * Z :=
  match ks with
  | [] => (l, r)
  | k :: ks' => des_rounds ks' r (Z.lxor l (des_f r k))
  end.

(* the block operation with the subkeys in the order given *)
Definition des_crypt_ks (ks : list Z) (blk8 : bytes) : bytes :=
  let x := gather ip_idx (be_val_fast blk8) in
  let '(l, r) := des_rounds ks (Z.shiftr x 32) (Z.land x des_mask32) in
  be_bytes_fast 8 (gather fp_idx (Z.lor (Z.shiftl r 32) l)).

Definition des_encrypt_ks (ks : list Z) (blk8 : bytes) : bytes := des_crypt_ks ks blk8.
Definition des_decrypt_ks (ks : list Z) (blk8 : bytes) : bytes := des_crypt_ks (rev ks) blk8.

Definition des_encrypt_block (key8 blk8 : bytes) : bytes := des_encrypt_ks (des_expand_key key8) blk8.
Definition des_decrypt_block (key8 blk8 : bytes) : bytes := des_decrypt_ks (des_expand_key key8) blk8.

(* ---------- triple DES, EDE, three keys (key24 = k1 || k2 || k3) ---------- *)

Definition tdes_expand_key (key24 : bytes) : list Z * list Z * list Z :=
  (des_expand_key (firstn 8 key24),
   des_expand_key (firstn 8 (skipn 8 key24)),
   des_expand_key (firstn 8 (skipn 16 key24))).

Definition tdes_encrypt_ks (ks : list Z * list Z * list Z) (blk8 : bytes) : bytes :=
  let '(k1, k2, k3) := ks in des_encrypt_ks k3 (des_decrypt_ks k2 (des_encrypt_ks k1 blk8)).

Definition tdes_decrypt_ks (ks : list Z * list Z * list Z) (blk8 : bytes) : bytes :=
  let '(k1, k2, k3) := ks in des_decrypt_ks k1 (des_encrypt_ks k2 (des_decrypt_ks k3 blk8)).

Definition tdes_encrypt_block (key24 blk8 : bytes) : bytes := tdes_encrypt_ks (tdes_expand_key key24) blk8.
Definition tdes_decrypt_block (key24 blk8 : bytes) : bytes := tdes_decrypt_ks (tdes_expand_key key24) blk8.

Lemma zbit_testbit x n : 0 <= x -> zbit x n = Z.testbit x (Z.of_nat n).
Proof.
  intros Hx. destruct x as [|p|p]; [now rewrite Z.testbit_0_l | | lia].
  destruct n as [|n].
  - destruct p; reflexivity.
  - cbn [zbit]. rewrite <- Ptestbit_Pbit. reflexivity.
Qed.

Lemma gather_permute w tbl x :
  0 <= x -> Forall (fun p => p <= w) tbl -> gather (bit_indices w tbl) x = permute w tbl x.
Proof.
  intros Hx Htbl. unfold gather, permute, bit_indices. generalize 0 as acc.
  induction Htbl as [|p tbl Hp Htbl IH]; intros acc; [reflexivity|].
  cbn [map fold_left]. rewrite IH. f_equal.
  rewrite zbit_testbit, Z2Nat.id by lia.
  destruct (Z.testbit x (w - p)); cbn [Z.b2z].
  - rewrite Z.succ_double_spec. lia.
  - rewrite Z.double_spec. lia.
Qed.

Lemma forallb_le_Forall w tbl : forallb (fun p => p <=? w) tbl = true -> Forall (fun p => p <= w) tbl.
Proof. intros H. apply Forall_forall. intros p Hp. rewrite forallb_forall in H. apply Z.leb_le, H, Hp. Qed.

(* the six index lists used by the executable definitions are the FIPS tables *)
Lemma gather_ip x : 0 <= x -> gather ip_idx x = permute 64 ip_tbl x.
Proof. intros H. apply gather_permute; [exact H | apply forallb_le_Forall; reflexivity]. Qed.
Lemma gather_fp x : 0 <= x -> gather fp_idx x = permute 64 fp_tbl x.
Proof. intros H. apply gather_permute; [exact H | apply forallb_le_Forall; reflexivity]. Qed.
Lemma gather_e x : 0 <= x -> gather e_idx x = permute 32 e_tbl x.
Proof. intros H. apply gather_permute; [exact H | apply forallb_le_Forall; reflexivity]. Qed.
Lemma gather_p x : 0 <= x -> gather p_idx x = permute 32 p_tbl x.
Proof. intros H. apply gather_permute; [exact H | apply forallb_le_Forall; reflexivity]. Qed.
Lemma gather_pc1 x : 0 <= x -> gather pc1_idx x = permute 64 pc1_tbl x.
Proof. intros H. apply gather_permute; [exact H | apply forallb_le_Forall; reflexivity]. Qed.
Lemma gather_pc2 x : 0 <= x -> gather pc2_idx x = permute 56 pc2_tbl x.
Proof. intros H. apply gather_permute; [exact H | apply forallb_le_Forall; reflexivity]. Qed.

Lemma le_bytes_fast_eq n z : le_bytes_fast n z = le_bytes n z.
Proof.
  revert z; induction n as [|n IH]; intros z; [reflexivity|].
  cbn [le_bytes_fast le_bytes]. rewrite IH. f_equal.
  - change 255 with (Z.ones 8). rewrite Z.land_ones by lia. reflexivity.
  - f_equal. rewrite Z.shiftr_div_pow2 by lia. reflexivity.
Qed.

Lemma be_bytes_fast_eq n z : be_bytes_fast n z = be_bytes n z.
Proof. unfold be_bytes_fast, be_bytes. now rewrite le_bytes_fast_eq. Qed.

Lemma be_bytes_fast_length n z : length (be_bytes_fast n z) = n.
Proof. rewrite be_bytes_fast_eq. apply be_bytes_length. Qed.

Lemma be_bytes_fast_wf n z : wf_bytes (be_bytes_fast n z).
Proof. rewrite be_bytes_fast_eq. apply be_bytes_wf. Qed.

Lemma table_lengths :
  length ip_tbl = 64%nat /\ length fp_tbl = 64%nat /\ length e_tbl = 48%nat /\
  length p_tbl = 32%nat /\ length pc1_tbl = 56%nat /\ length pc2_tbl = 48%nat /\
  length key_shifts = 16%nat /\ length sboxes = 8%nat.
Proof. repeat split. Qed.

(* IP and FP are mutually inverse permutations of 1..64 *)
Lemma fp_ip_inverse :
  forallb (fun i => nth (Z.to_nat (nth (Z.to_nat i - 1) fp_tbl 0) - 1) ip_tbl 0 =? i)
          (map Z.of_nat (seq 1 64)) = true.
Proof. vm_compute. reflexivity. Qed.

Lemma ks_loop_length shifts c d : length (ks_loop shifts c d) = length shifts.
Proof. revert c d; induction shifts as [|n r IH]; intros c d; cbn; [reflexivity | now rewrite IH]. Qed.

Lemma des_expand_key_length key8 : length (des_expand_key key8) = 16%nat.
Proof. unfold des_expand_key. now rewrite ks_loop_length. Qed.

(* all lengths are unconditional: the result is always an 8-byte list of well-formed bytes *)
Lemma des_crypt_ks_length ks blk : length (des_crypt_ks ks blk) = 8%nat.
Proof.
  unfold des_crypt_ks. destruct (des_rounds _ _ _) as [l r]. apply be_bytes_fast_length.
Qed.

Lemma des_crypt_ks_wf ks blk : wf_bytes (des_crypt_ks ks blk).
Proof.
  unfold des_crypt_ks. destruct (des_rounds _ _ _) as [l r]. apply be_bytes_fast_wf.
Qed.

Lemma des_encrypt_ks_length ks blk : length (des_encrypt_ks ks blk) = 8%nat.
Proof. apply des_crypt_ks_length. Qed.
Lemma des_decrypt_ks_length ks blk : length (des_decrypt_ks ks blk) = 8%nat.
Proof. apply des_crypt_ks_length. Qed.
Lemma des_encrypt_block_length key blk : length (des_encrypt_block key blk) = 8%nat.
Proof. apply des_crypt_ks_length. Qed.
Lemma des_decrypt_block_length key blk : length (des_decrypt_block key blk) = 8%nat.
Proof. apply des_crypt_ks_length. Qed.

Lemma tdes_encrypt_ks_length ks blk : length (tdes_encrypt_ks ks blk) = 8%nat.
Proof. destruct ks as [[k1 k2] k3]. apply des_crypt_ks_length. Qed.
Lemma tdes_decrypt_ks_length ks blk : length (tdes_decrypt_ks ks blk) = 8%nat.
Proof. destruct ks as [[k1 k2] k3]. apply des_crypt_ks_length. Qed.
Lemma tdes_encrypt_ks_wf ks blk : wf_bytes (tdes_encrypt_ks ks blk).
Proof. destruct ks as [[k1 k2] k3]. apply des_crypt_ks_wf. Qed.
Lemma tdes_decrypt_ks_wf ks blk : wf_bytes (tdes_decrypt_ks ks blk).
Proof. destruct ks as [[k1 k2] k3]. apply des_crypt_ks_wf. Qed.

Theorem tdes_encrypt_block_length key24 blk : length (tdes_encrypt_block key24 blk) = 8%nat.
Proof. apply tdes_encrypt_ks_length. Qed.
Theorem tdes_decrypt_block_length key24 blk : length (tdes_decrypt_block key24 blk) = 8%nat.
Proof. apply tdes_decrypt_ks_length. Qed.

(* quick self-check: the classic worked example *)
Example des_classic :
  des_encrypt_block [0x13;0x34;0x57;0x79;0x9B;0xBC;0xDF;0xF1] [0x01;0x23;0x45;0x67;0x89;0xAB;0xCD;0xEF]
  = [0x85;0xE8;0x13;0x54;0x0F;0x0A;0xB4;0x05].
Proof. vm_compute. reflexivity. Qed.
