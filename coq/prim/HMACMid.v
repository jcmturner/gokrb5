(* Gokrb5.prim.HMACMid — HMAC through the states reached after its two key blocks.
   hmac h B key msg hashes a B-byte block derived from the key, then a message, twice; the state after that block
   does not depend on the message.  PBKDF2 calls HMAC under one key once per iteration, so the two states are needed
   once and half of the compressions go.  The PBKDF2 known-answer tests are evaluated in this form. *)
From Gokrb5.lib Require Import Bytes.
From Gokrb5.prim Require Import HashCommon SHA1 SHA256 SHA512 HMAC PBKDF2.
Open Scope Z_scope.

Lemma chunks_fuel_enough {A} n (l : list A) : (0 < n)%nat -> forall f1 f2,
  (length l <= f1)%nat -> (length l <= f2)%nat -> chunks_fuel n f1 l = chunks_fuel n f2 l.
Proof.
  intros Hn f1. revert l. induction f1 as [|f1 IH]; intros l f2 H1 H2.
  - destruct l; [destruct f2; reflexivity | cbn in H1; lia].
  - destruct f2 as [|f2]; [destruct l; [reflexivity | cbn in H2; lia]|].
    destruct l as [|x l]; [reflexivity|]. cbn [chunks_fuel]. f_equal.
    apply IH; rewrite skipn_length; cbn [length] in *; lia.
Qed.

Lemma chunks_block {A} (w l : list A) : w <> [] -> chunks (length w) (w ++ l) = w :: chunks (length w) l.
Proof.
  intros Hw. unfold chunks. rewrite app_length.
  destruct w as [|x w]; [contradiction|]. set (n := length (x :: w)).
  change (chunks_fuel n (n + length l) ((x :: w) ++ l))
    with (firstn n ((x :: w) ++ l) :: chunks_fuel n (length w + length l) (skipn n ((x :: w) ++ l))).
  unfold n. rewrite firstn_app_exact, skipn_app_exact. f_equal. apply chunks_fuel_enough; cbn [length]; lia.
Qed.

Lemma be32s_block k : forall blk r, length blk = (4 * k)%nat ->
  be32s (blk ++ r) = be32s blk ++ be32s r /\ length (be32s blk) = k.
Proof.
  induction k as [|k IH]; intros blk r H.
  - destruct blk; [split; reflexivity | discriminate].
  - destruct blk as [|a [|b [|c [|d blk]]]]; try (cbn in H; lia).
    destruct (IH blk r) as [E L]; [cbn in H; lia|]. cbn [be32s app length]. rewrite E, L. split; reflexivity.
Qed.

Lemma be64s_block k : forall blk r, length blk = (8 * k)%nat ->
  be64s (blk ++ r) = be64s blk ++ be64s r /\ length (be64s blk) = k.
Proof.
  induction k as [|k IH]; intros blk r H.
  - destruct blk; [split; reflexivity | discriminate].
  - destruct blk as [|a [|b [|c [|d [|e [|f [|g [|h blk]]]]]]]]; try (cbn in H; lia).
    destruct (IH blk r) as [E L]; [cbn in H; lia|]. cbn [be64s app length]. rewrite E, L. split; reflexivity.
Qed.

Lemma pos_iter_ext {A} (f g : A -> A) : (forall a, f a = g a) -> forall p a, Pos.iter f a p = Pos.iter g a p.
Proof. intros H. induction p as [p IH|p IH|]; intros a; cbn [Pos.iter]; rewrite ?IH, ?H; reflexivity. Qed.

Lemma pbkdf2_ext prf prf' hlen pw salt iter dklen :
  (forall m, prf pw m = prf' pw m) -> pbkdf2 prf hlen pw salt iter dklen = pbkdf2 prf' hlen pw salt iter dklen.
Proof.
  intros H. unfold pbkdf2. f_equal. generalize 1 as i.
  induction ((dklen + hlen - 1) / hlen)%nat as [|l IH]; intros i; [reflexivity|].
  cbn [pbkdf2_blocks]. rewrite IH. f_equal. unfold pbkdf2_F. rewrite H.
  destruct (iter - 1) as [|p|p]; cbn [Z.iter]; [reflexivity| |reflexivity].
  f_equal. apply pos_iter_ext. intros s. unfold pbkdf2_step. rewrite H. reflexivity.
Qed.

Section MD.
  Context {S : Type} (compress : S -> list Z -> S) (iv : S) (finish : S -> bytes).
  Variables (bsz hlen : nat) (parse : bytes -> list Z) (tail : Z -> bytes).
  Hypothesis parse_block : forall blk r, length blk = bsz ->
    parse (blk ++ r) = parse blk ++ parse r /\ length (parse blk) = 16%nat.
  Hypothesis finish_length : forall s, length (finish s) = hlen.
  Hypothesis hlen_le : (hlen <= bsz)%nat.

  Definition md (m : bytes) : bytes :=
    finish (fold_left compress (chunks 16 (parse (m ++ tail (zlen m)))) iv).

  (* the hash of blk ++ m, continued from the state st after the one-block prefix blk *)
  Definition md_resume (st : S) (m : bytes) : bytes :=
    finish (fold_left compress (chunks 16 (parse (m ++ tail (Z.of_nat bsz + zlen m)))) st).

  Lemma md_block blk m : length blk = bsz -> md (blk ++ m) = md_resume (compress iv (parse blk)) m.
  Proof.
    intros H. unfold md, md_resume. rewrite <- app_assoc, zlen_app.
    destruct (parse_block blk (m ++ tail (zlen blk + zlen m)) H) as [-> L].
    rewrite <- L, chunks_block by (intros E; rewrite E in L; discriminate).
    unfold zlen. rewrite H. reflexivity.
  Qed.

  Definition hmac_mid (key : bytes) : bytes -> bytes :=
    let k := hmac_key md bsz key in
    let si := compress iv (parse (map (Z.lxor 0x36) k)) in
    let so := compress iv (parse (map (Z.lxor 0x5C) k)) in
    fun msg => md_resume so (md_resume si msg).

  Lemma hmac_mid_eq key msg : hmac md bsz key msg = hmac_mid key msg.
  Proof.
    assert (L : length (hmac_key md bsz key) = bsz).
    { unfold hmac_key. set (k0 := if (bsz <? length key)%nat then md key else key).
      assert (length k0 <= bsz)%nat
        by (unfold k0; destruct (Nat.ltb_spec bsz (length key)); [unfold md; rewrite finish_length|]; lia).
      rewrite app_length, repeatz_length. lia. }
    unfold hmac, hmac_mid. rewrite !md_block by (rewrite map_length; exact L). reflexivity.
  Qed.

  Lemma pbkdf2_mid pw salt iter dklen :
    pbkdf2 (hmac md bsz) hlen pw salt iter dklen
    = let f := hmac_mid pw in pbkdf2 (fun _ => f) hlen pw salt iter dklen.
  Proof. apply pbkdf2_ext. intros m. apply hmac_mid_eq. Qed.
End MD.

Definition tail64 (n : Z) : bytes := 0x80 :: repeatz 0 (pad_zeros 64 8 n) ++ be_bytes 8 (8 * n).
Definition tail128 (n : Z) : bytes := 0x80 :: repeatz 0 (pad_zeros 128 16 n) ++ be_bytes 16 (8 * n).

Definition sha1_finish (s : sha1_st) : bytes :=
  let '(h0, h1, h2, h3, h4) := s in flat_map be32_bytes [h0; h1; h2; h3; h4].
Definition sha256_finish (s : sha256_st) : bytes :=
  let '(h0, h1, h2, h3, h4, h5, h6, h7) := s in flat_map be32_bytes [h0; h1; h2; h3; h4; h5; h6; h7].
Definition sha384_finish (s : sha512_st) : bytes :=
  let '(h0, h1, h2, h3, h4, h5, _, _) := s in flat_map be64_bytes [h0; h1; h2; h3; h4; h5].

(* sha1, sha256, sha384 unfold to md of their compression function, initial state and output function, so pbkdf2_mid
   applies up to conversion. *)
Lemma pbkdf2_sha1_mid pw salt iter dklen :
  pbkdf2_sha1 pw salt iter dklen
  = let f := hmac_mid sha1_compress sha1_iv sha1_finish 64 be32s tail64 pw in
    pbkdf2 (fun _ => f) 20 pw salt iter dklen.
Proof.
  refine (pbkdf2_mid sha1_compress sha1_iv sha1_finish 64 20 be32s tail64 (be32s_block 16) _ _ pw salt iter dklen);
    [intros [[[[? ?] ?] ?] ?]; reflexivity | lia].
Qed.

Lemma pbkdf2_sha256_mid pw salt iter dklen :
  pbkdf2_sha256 pw salt iter dklen
  = let f := hmac_mid sha256_compress sha256_iv sha256_finish 64 be32s tail64 pw in
    pbkdf2 (fun _ => f) 32 pw salt iter dklen.
Proof.
  refine (pbkdf2_mid sha256_compress sha256_iv sha256_finish 64 32 be32s tail64 (be32s_block 16) _ _ pw salt iter dklen);
    [intros [[[[[[[? ?] ?] ?] ?] ?] ?] ?]; reflexivity | lia].
Qed.

Lemma pbkdf2_sha384_mid pw salt iter dklen :
  pbkdf2_sha384 pw salt iter dklen
  = let f := hmac_mid sha512_compress sha384_iv sha384_finish 128 be64s tail128 pw in
    pbkdf2 (fun _ => f) 48 pw salt iter dklen.
Proof.
  refine (pbkdf2_mid sha512_compress sha384_iv sha384_finish 128 48 be64s tail128 (be64s_block 16) _ _ pw salt iter dklen);
    [intros [[[[[[[? ?] ?] ?] ?] ?] ?] ?]; reflexivity | lia].
Qed.
