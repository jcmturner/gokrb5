(* Gokrb5.prim.HashVectors — known-answer tests for the hash primitives, evaluated by the
   kernel (vm_compute).  "pub" vectors come from the cited standards; "gen" vectors were
   produced with Go's standard library (crypto/sha1, crypto/sha256, crypto/sha512,
   crypto/md5, crypto/hmac) and golang.org/x/crypto v0.6.0 (md4, pbkdf2) on pseudo-random
   inputs whose lengths straddle the padding and block boundaries. *)
From Coq Require Import String Ascii.
From Gokrb5.lib Require Import Bytes.
From Gokrb5.prim Require Import SHA1 SHA256 SHA512 MD4 MD5 HMAC PBKDF2 HMACMid.
Open Scope Z_scope.

Definition hexval (c : ascii) : Z :=
  let n := Z.of_N (N_of_ascii c) in
  if (48 <=? n) && (n <=? 57) then n - 48
  else if (97 <=? n) && (n <=? 102) then n - 87
  else if (65 <=? n) && (n <=? 70) then n - 55
  else 0.

(* bytes from a hex string / from the ASCII codes of a string *)
Fixpoint hex (s : string) : bytes :=
  match s with
  | String a (String b r) => (16 * hexval a + hexval b) :: hex r
  | _ => []
  end.
Fixpoint str (s : string) : bytes :=
  match s with
  | String a r => Z.of_N (N_of_ascii a) :: str r
  | EmptyString => []
  end.
Arguments hex s%string.
Arguments str s%string.

(* ================= sha1 ================= *)

(* published: FIPS 180-4 / NIST example *)
Example sha1_pub_1 :
  sha1 (str "abc")
  = hex "a9993e364706816aba3e25717850c26c9cd0d89d".
Proof. vm_compute. reflexivity. Qed.

Example sha1_pub_2 :
  sha1 ([])
  = hex "da39a3ee5e6b4b0d3255bfef95601890afd80709".
Proof. vm_compute. reflexivity. Qed.

Example sha1_pub_3 :
  sha1 (str "abcdbcdecdefdefgefghfghighijhijkijkljklmklmnlmnomnopnopq")
  = hex "84983e441c3bd26ebaae4aa1f95129e5e54670f1".
Proof. vm_compute. reflexivity. Qed.

Example sha1_pub_4 :
  sha1 (str "abcdefghbcdefghicdefghijdefghijkefghijklfghijklmghijklmnhijklmnoijklmnopjklmnopqklmnopqrlmnopqrsmnopqrstnopqrstu")
  = hex "a49b2446a02c645bf419f995b67091253a04a259".
Proof. vm_compute. reflexivity. Qed.

(* generated with Go's standard library (x/crypto for md4): pseudo-random messages *)
Example sha1_gen_len0 :
  sha1 (hex "")
  = hex "da39a3ee5e6b4b0d3255bfef95601890afd80709".
Proof. vm_compute. reflexivity. Qed.

Example sha1_gen_len1 :
  sha1 (hex "c6")
  = hex "8b3291a6208fb6849c641e97ffe5b54c13ac84cb".
Proof. vm_compute. reflexivity. Qed.

Example sha1_gen_len55 :
  sha1 (hex "cb71efea9216f8673aa0bed08a777d4e24aad8981ba1ca8eef2d6fb6353320a18c6ea436a61a4f668a8162d651b5ff7bfef9872e41983c")
  = hex "d04a4228509f63c79f3740d9a344e3f6c766d88b".
Proof. vm_compute. reflexivity. Qed.

Example sha1_gen_len56 :
  sha1 (hex "d15ae353b191c3b6875165c7a4f495992c39ecdea667b88b3cb3a548433b5809ff268d97b7bd74f2919855cec32cc2870d51d4579b8f36bc")
  = hex "fd21be84c2efd76d7f2cec3f4753bb67cdac68ac".
Proof. vm_compute. reflexivity. Qed.

Example sha1_gen_len57 :
  sha1 (hex "d742d6bdcf0d8f05d4030cbebe71aee534c80023322da6898a38dcdb5143917271dd77f7c85f987f99ae48c636a386921ca82080f48730c12e")
  = hex "5e2486952afa4b568461cc4a08ce1508f21db6fe".
Proof. vm_compute. reflexivity. Qed.

Example sha1_gen_len63 :
  sha1 (hex "dc2aca27ed895a5421b4b2b5d8efc7313c571468bdf39486d7be126d604bcadae4956157d902bc0ca0c53bbea81a4a9d2b006da94e7f2ac5a9956cd2784a52")
  = hex "9c55f8bd21ae88b406d9bd116f2f184def317e6e".
Proof. vm_compute. reflexivity. Qed.

Example sha1_gen_len64 :
  sha1 (hex "e212bd910c0425a36d6659adf26cdf7c44e628ad49b98184254349ff6e530242574c4bb8eaa4e199a7dc2eb61a900da93a57bad2a77624ca24b51b20c8c7fa98")
  = hex "95b8f50089f2448dda34f61aec873b958e212169".
Proof. vm_compute. reflexivity. Qed.

Example sha1_gen_len65 :
  sha1 (hex "e7fab1fb2a80f1f2ba1700a40be9f8c84c763cf2d47f6f8172c980917c5b3baac9043418fb470526aff321ae8d07d1b449ae06fb016e1ecf9ed5c96f1944a1d5c1")
  = hex "e1e7f3f125a70b9504b1b2626fa955552f0d5325".
Proof. vm_compute. reflexivity. Qed.

Example sha1_gen_len111 :
  sha1 (hex "ede2a56548fbbc4007c9a69b256611145405503760455d7fc04fb6238a6273123cbb1e780cea29b2b60a14a5ff7e94bf580653245a6619d419f578bd69c14813a51c8c5b98d29101884a5b719057bbf5b97e95ed9ef3380f6594ccc070a240cb150533ef214ac21821bc3b388f4821")
  = hex "b3e84c3b77644fcbde32674bc31e6feb119c6e46".
Proof. vm_compute. reflexivity. Qed.

Example sha1_gen_len112 :
  sha1 (hex "f2ca98cf6777888f547b4d923fe32a5f5c94647deb0b4b7c0dd4edb6986aac7baf7308d91d8c4e3fbe21079d72f558ca675d9f4db45d13d99415260bb93def50889ae6e935a6a0800ddf7bce6e6d412d2e12472d7fa491738576f08c30693871179ef0dd59fa23c8c4ea379cd425eaec")
  = hex "3df7f4ff2ebf85961dd2d3aba7a31d40ab4821b0".
Proof. vm_compute. reflexivity. Qed.

Example sha1_gen_len119 :
  sha1 (hex "f8b28c3985f253dea12cf489596042ab642378c277d1387a5b5a2348a672e4e3212af2392e2f72ccc538fa95e46c1bd676b5ec760e550ddd0f36d45a0aba978e6c183f77d37bb0fe92749b2a4c82c765a3a5f96c6056ead7a4581458f02f30171a37acca90aa8479661733011901b3ce06c2c25b04dad1")
  = hex "e569f6c819291d99b4ce06146a3c225fd4b37c29".
Proof. vm_compute. reflexivity. Qed.

Example sha1_gen_len120 :
  sha1 (hex "fe9a7fa3a36e1f2deede9a8073dd5bf76db28c0702972677a8df5adab47a1d4b94e2db993fd19659cc4fed8d57e2dfe1850c38a0674c07e2895683a85a373ecb50969805704fbf7d170abb872a984e9d1738aaab4107433bc43a3824aff528bd1ccf69b8c75ae52909442e665dde7db1d12aa8e602b5589b")
  = hex "4c35279a3265ac11e2c06213086cbea514f3c249".
Proof. vm_compute. reflexivity. Qed.

Example sha1_gen_len127 :
  sha1 (hex "0382730cc2e9ea7c3a8f41778d5a74427541a04c8e5d1475f565916cc28255b30799c5fa5074bae5d466e185c959a2ec946385c9c14401e7047631f6aab4e5093414f1930d24cefb9c9fdbe408aed4d68ccc5ceb23b99c9fe41d5bf16fbc20631f6825a5fe0b46d9ac712acaa2bb46949b928d700090dfca987284c1f1005e")
  = hex "68bc340cbca662a24d98a273c4072f8ede54bbab".
Proof. vm_compute. reflexivity. Qed.

Example sha1_gen_len128 :
  sha1 (hex "096a6676e065b6cb8741e86ea6d78c8e7dd0b4911a23027243ebc7fed08a8e1b7951af5a6116df72db7dd47d3bd066f7a3bbd1f21a3cfbec7f96e045fb308c4617924a22abf8de7a2134fa41e7c35a0e005f0d2a046bf50304ff7fbd2e8218092100e29335bba8894f9e262fe7970f7666fa73fafe6b66f99a0712129cb09ae5")
  = hex "1001b1d1c234a4b9a02680dc7cfcfd6d51391c6a".
Proof. vm_compute. reflexivity. Qed.

Example sha1_gen_len129 :
  sha1 (hex "0e525ae0fee0811ad4f28e66c054a5da855fc8d7a5e9ef6f9070fe91de92c784ec0899ba71b903ffe293c774ae472903b2121e1b7433f5f1fab68e934bad3483fb10a4b048cdedf8a5c91a9ec5d9e04675f2bf6ae51c4e6723e1a389ee4810b023999e806d6b0939f1cc22942c74d95931625985fc46ed289c9ba063485fd51fc0")
  = hex "6ad42afcddc18704562e579f8097edfd3c084fd5".
Proof. vm_compute. reflexivity. Qed.

Example sha1_gen_len200 :
  sha1 (hex "143a4d4a1d5c4c6821a4355ddad1be258deedc1c31afdd6ddef63423ec9affec5fc0821b825c278ceaaaba6c20beed0ec16a6a44ce2beff574d63ce19b2adbc1df8efd3ee6a1fc772a5e3afba3ee677eea8671a9c6cea7cb43c3c755ad0f085626325b6ea41c6ae994f91df97151a23bfcca3f0ffa2174579e302db4f30f115908ad1ff89e7033789daa2e669c06bc5e2d320acecd64ebd99c862d4e422523cf9f76aebe3bf53f8a80939c5c3b627355f92de9d02687c5631b20e7827181100e4874543563b7985c")
  = hex "426ff80d2a16754860ef4131a958dcfb5ff48e76".
Proof. vm_compute. reflexivity. Qed.

(* ================= sha256 ================= *)

(* published: FIPS 180-4 / NIST example *)
Example sha256_pub_1 :
  sha256 (str "abc")
  = hex "ba7816bf8f01cfea414140de5dae2223b00361a396177a9cb410ff61f20015ad".
Proof. vm_compute. reflexivity. Qed.

Example sha256_pub_2 :
  sha256 ([])
  = hex "e3b0c44298fc1c149afbf4c8996fb92427ae41e4649b934ca495991b7852b855".
Proof. vm_compute. reflexivity. Qed.

Example sha256_pub_3 :
  sha256 (str "abcdbcdecdefdefgefghfghighijhijkijkljklmklmnlmnomnopnopq")
  = hex "248d6a61d20638b8e5c026930c3e6039a33ce45964ff2167f6ecedd419db06c1".
Proof. vm_compute. reflexivity. Qed.

Example sha256_pub_4 :
  sha256 (str "abcdefghbcdefghicdefghijdefghijkefghijklfghijklmghijklmnhijklmnoijklmnopjklmnopqklmnopqrlmnopqrsmnopqrstnopqrstu")
  = hex "cf5b16a778af8380036ce59e7b0492370b249b11e8f07a51afac45037afee9d1".
Proof. vm_compute. reflexivity. Qed.

(* generated with Go's standard library (x/crypto for md4): pseudo-random messages *)
Example sha256_gen_len0 :
  sha256 (hex "")
  = hex "e3b0c44298fc1c149afbf4c8996fb92427ae41e4649b934ca495991b7852b855".
Proof. vm_compute. reflexivity. Qed.

Example sha256_gen_len1 :
  sha256 (hex "24")
  = hex "09fc96082d34c2dfc1295d92073b5ea1dc8ef8da95f14dfded011ffb96d3e54b".
Proof. vm_compute. reflexivity. Qed.

Example sha256_gen_len55 :
  sha256 (hex "29c02ea34997e9063e5af2e2ba2dc96e7b757ca61d568c97748819ec3758500924c94376e621ac634d644a76b785c44cb34254413e0ba7")
  = hex "b7f6b04dd07309a5492286b3dfe280741a25a6fe539e26b46c640a72586ba4c7".
Proof. vm_compute. reflexivity. Qed.

Example sha256_gen_len56 :
  sha256 (hex "2fa8220d6713b4558b0b99d9d4aae2ba830590eba91c7995c20e507e4560887197802cd7f7c3d1f0557b3d6e2afb8857c299a16a9803a179")
  = hex "74f6ecea3597c5828c174f4bb49842bd284560c3f35a37da8ad1b67c3970f833".
Proof. vm_compute. reflexivity. Qed.

Example sha256_gen_len57 :
  sha256 (hex "34901577858e80a4d8bd3fd0ee27fa058b94a43035e267920f9386105368c1d9093816370866f57c5c9231669c724b62d1f1ed93f1fa9b7d16")
  = hex "c6c5f1d4ab8a13f5dbcd84437779112d585361651bd5461e4b9de98ad0da0ab1".
Proof. vm_compute. reflexivity. Qed.

Example sha256_gen_len63 :
  sha256 (hex "3a7909e1a40a4bf3256fe6c708a413519323b875c0a855905d19bda26170f9427cef00971909190964a9245e0ee90f6ee0483abc4bf2958290b9ac0839c1fb")
  = hex "2b9466db41698fdbf7678ad9ab8f28002df15ea9a881d8bfdebbbb5959e8a286".
Proof. vm_compute. reflexivity. Qed.

Example sha256_gen_len64 :
  sha256 (hex "3f61fc4bc285174172208dbe21212c9d9bb2ccba4c6e438daa9ff3346f7832aaefa7eaf82aab3e966bc017558160d279efa086e5a5e990870bd95b568a3ea299")
  = hex "1c25589a4316e08f70b2f1e8248a848f2fd222808f93e5d107ca78fdb0fbffcc".
Proof. vm_compute. reflexivity. Qed.

Example sha256_gen_len65 :
  sha256 (hex "4549f0b5e001e290bfd233b63b9e44e8a341e000d734318bf8242ac77d806a12615ed3583b4e622372d70a4df3d79684fef7d30efee18a8c86f909a4dabb49d7ad")
  = hex "313c7a19b65dd53b0bafee46f5ca8381c91f71149fa440c6da85a5d738856ce3".
Proof. vm_compute. reflexivity. Qed.

Example sha256_gen_len111 :
  sha256 (hex "4b31e31fff7caedf0b83daad551b5d34abd0f44563fa1e8845aa61598b87a37ad416bdb84cf086b07aeefd45664d59900d4e203758d984900119b7f32a38f0149186406a89d28dd44abf45152c3d98dfd998567497b0bf232f49d4231c910e8df3427d813f09adb2430adfe357b271")
  = hex "a277bfd9d11790db652ec48bccb488d07998269d40c07f0d6c402afb8fb56a93".
Proof. vm_compute. reflexivity. Qed.

Example sha256_gen_len112 :
  sha256 (hex "5019d7891df8792e583581a46f987680b45f088aeec00c86922f97eb998fdce247cda7195d93aa3c8105f03dd8c41d9b1ca66c60b1d07e957b3a66417bb49852740399f826a79c53cf5464720b531e174e2b08b3786218874f2bf7efdc570633f5db3a6e76b90e62e637db479c8f3af3")
  = hex "f1b15d58a16f407f5c5ee15bfd4223a6e33b1cd1dc6e2404dd92923dd81f2f6e".
Proof. vm_compute. reflexivity. Qed.

Example sha256_gen_len119 :
  sha256 (hex "5601caf23b73447da5e6279b89158fccbcee1ccf7a86fa83e0b5ce7da797144bba8591796e36cfc9881ce3354b3be0a62bfdb9890bc8789af65a148fcb313f8f5881f387c47bacd153e984cfe968a44fc2bebaf3591371eb6f0d1bbb9b1dfed9f873f65cad6a70128965d6ace16b03d561014f6d8fff42")
  = hex "a8a1ee995c381cec615a6132544f7fdd6be645cd8032fd3d03424d446d125dbb".
Proof. vm_compute. reflexivity. Qed.

Example sha256_gen_len120 :
  sha256 (hex "5be9be5c5aef10ccf298ce92a392a717c47d3014054ce8812d3a040fb69f4db32c3c7ad97fd8f3569032d62dbdb2a4b13a5505b365c0729f717ac3de1baee6cd3cff4c156150bb50d87ea42cc77e2a8837526b323ac5ca4f8eef3f875be3f67ffa0cb349e41ad1c22c92d2112648cdb82b6935f78ddac963")
  = hex "25adef9ad1536539856c1d34f53ac8ef57353bddc044bb22b76baa2f44f806d9".
Proof. vm_compute. reflexivity. Qed.

Example sha256_gen_len127 :
  sha256 (hex "61d1b1c6786bdb1b3f4a7589bc0fc063cc0c44599113d57e7bc03ba1c4a7851b9ff4643a907b17e39749c9242f2968bd49ac52dcbeb76ca4ec9a712c6c2b8d0a207da5a3fe24cace5d13c489a593b1c0ace51d711c7623b3aed263531baaee25fca46f371bca3273cebfce756b25969af6d11b818bb650922ba13345e73bfc")
  = hex "b61f6929392499084a55b13856269da063745ed93385b73d2efb1c400e26cc6d".
Proof. vm_compute. reflexivity. Qed.

Example sha256_gen_len128 :
  sha256 (hex "67b9a53097e6a76a8bfb1b80d68cd9afd49c589f1cd9c37cc8467234d2afbe8312ab4e9aa11d3c6f9f60bc1ca29f2bc858039e0518af66a866ba1f7abca7354703fbfe319cf9da4de2a8e4e684a937f82078ceb1fd287c17ceb4871fda70e6cbff3d2c24537b932371ecc9dab0015f7dc139000c8991d7c12d35c19692eb3866")
  = hex "d62a032cee946daba1581f6726ac51e22d090c56025ef7d637e5ac4a30b14670".
Proof. vm_compute. reflexivity. Qed.

Example sha256_gen_len129 :
  sha256 (hex "6ca1999ab56272b8d8adc277f00af1fadc2b6ce4a89fb17916cba8c6e0b7f6eb846338fab2c060fca677af141416efd3675beb2e71a661ade1dacec90c24dc85e77957bf39cde9cb673d044362bfbd30950c80f0ded9d57bee96abeb9a36de7101d6e9128a2bf4d31419c53ff4de29608ba1e696876c5ef02fca4fe73e9a73a033")
  = hex "61217e9d93532faf851facdbf7e5a87e0e21593f87f06ac46198cc89f23b4f4f".
Proof. vm_compute. reflexivity. Qed.

Example sha256_gen_len200 :
  sha256 (hex "72898c04d3dd3e07255e686f0a870a46e4ba802933659f776351df58eebe2f54f71a215bc3628489ad8ea20c878db2de76b23757cb9e5bb25cfb7c175da183c2cbf7b14dd6a2f84aebd224a040d443690a9f3230bf8b2edf0d78cfb759fdd617046ea5ffc1db5683b647c1a339bbf2425609cc208647e51f315fdc38e94aafda7bc2cea73985fcc1297a3221fa52179ed86cc8a99620f3ecc3b8903296b5b868cf295f8ff846eee6a37013b98e603081cf394b606d996d0f0501b7cd6d1dc0f062cdee16befdd627")
  = hex "a433c98d2a16053315c84bc83c662180f3f0f1d0732745de3decc551ec08a00f".
Proof. vm_compute. reflexivity. Qed.

(* ================= sha384 ================= *)

(* published: FIPS 180-4 / NIST example *)
Example sha384_pub_1 :
  sha384 (str "abc")
  = hex "cb00753f45a35e8bb5a03d699ac65007272c32ab0eded1631a8b605a43ff5bed8086072ba1e7cc2358baeca134c825a7".
Proof. vm_compute. reflexivity. Qed.

Example sha384_pub_2 :
  sha384 ([])
  = hex "38b060a751ac96384cd9327eb1b1e36a21fdb71114be07434c0cc7bf63f6e1da274edebfe76f65fbd51ad2f14898b95b".
Proof. vm_compute. reflexivity. Qed.

Example sha384_pub_3 :
  sha384 (str "abcdbcdecdefdefgefghfghighijhijkijkljklmklmnlmnomnopnopq")
  = hex "3391fdddfc8dc7393707a65b1b4709397cf8b1d162af05abfe8f450de5f36bc6b0455a8520bc4e6f5fe95b1fe3c8452b".
Proof. vm_compute. reflexivity. Qed.

Example sha384_pub_4 :
  sha384 (str "abcdefghbcdefghicdefghijdefghijkefghijklfghijklmghijklmnhijklmnoijklmnopjklmnopqklmnopqrlmnopqrsmnopqrstnopqrstu")
  = hex "09330c33f71147e83d192fc782cd1b4753111b173b3b05d22fa08086e3b0f712fcc7c71a557e2db966c3e9fa91746039".
Proof. vm_compute. reflexivity. Qed.

(* generated with Go's standard library (x/crypto for md4): pseudo-random messages *)
Example sha384_gen_len0 :
  sha384 (hex "")
  = hex "38b060a751ac96384cd9327eb1b1e36a21fdb71114be07434c0cc7bf63f6e1da274edebfe76f65fbd51ad2f14898b95b".
Proof. vm_compute. reflexivity. Qed.

Example sha384_gen_len1 :
  sha384 (hex "24")
  = hex "b1583f4b2e1bf53fc31e9dfb8e8d945a62955da709f280a9066aa8f31ef688d65e0e9816a5f1f11363b3898820bd1576".
Proof. vm_compute. reflexivity. Qed.

Example sha384_gen_len55 :
  sha384 (hex "29c02ea34997e9063e5af2e2ba2dc96e7b757ca61d568c97748819ec3758500924c94376e621ac634d644a76b785c44cb34254413e0ba7")
  = hex "d3fc57bbc610cb56818bd44e9a134f414686e87e79a91a7b5996c5ba15877e8adf7b39f2ee3fcbff249361376d02890f".
Proof. vm_compute. reflexivity. Qed.

Example sha384_gen_len56 :
  sha384 (hex "2fa8220d6713b4558b0b99d9d4aae2ba830590eba91c7995c20e507e4560887197802cd7f7c3d1f0557b3d6e2afb8857c299a16a9803a179")
  = hex "4570baed7550dac54cc09401854d723fb93a5d8bc708b563e04787e5dcb8c29cea66e52b26e952dbf3853f7895bde76a".
Proof. vm_compute. reflexivity. Qed.

Example sha384_gen_len57 :
  sha384 (hex "34901577858e80a4d8bd3fd0ee27fa058b94a43035e267920f9386105368c1d9093816370866f57c5c9231669c724b62d1f1ed93f1fa9b7d16")
  = hex "af6937e333a0cd20d3dfe84bb25f598a46941b770fdff6de3d9c9947bab3e6bc47bd567110896a9ec14993354693bcca".
Proof. vm_compute. reflexivity. Qed.

Example sha384_gen_len63 :
  sha384 (hex "3a7909e1a40a4bf3256fe6c708a413519323b875c0a855905d19bda26170f9427cef00971909190964a9245e0ee90f6ee0483abc4bf2958290b9ac0839c1fb")
  = hex "702e62ae92174c07a339538d0df5b00639b9879863cbc1319e479cc2b6285dc486348dd0b3ce284a6de730571b608733".
Proof. vm_compute. reflexivity. Qed.

Example sha384_gen_len64 :
  sha384 (hex "3f61fc4bc285174172208dbe21212c9d9bb2ccba4c6e438daa9ff3346f7832aaefa7eaf82aab3e966bc017558160d279efa086e5a5e990870bd95b568a3ea299")
  = hex "6ef9b7bfe0310ca97dd1a8b3c26b84c3f78401971ff3e53753510bba8d59b5a111c6f0ef4c7ed740ed418f95b19de2d4".
Proof. vm_compute. reflexivity. Qed.

Example sha384_gen_len65 :
  sha384 (hex "4549f0b5e001e290bfd233b63b9e44e8a341e000d734318bf8242ac77d806a12615ed3583b4e622372d70a4df3d79684fef7d30efee18a8c86f909a4dabb49d7ad")
  = hex "1b343f5326036bca6656d250a39c6fe56a1aa71017d613873dd1b8cbc22789c4f95ba34281495991d75643df4257702c".
Proof. vm_compute. reflexivity. Qed.

Example sha384_gen_len111 :
  sha384 (hex "4b31e31fff7caedf0b83daad551b5d34abd0f44563fa1e8845aa61598b87a37ad416bdb84cf086b07aeefd45664d59900d4e203758d984900119b7f32a38f0149186406a89d28dd44abf45152c3d98dfd998567497b0bf232f49d4231c910e8df3427d813f09adb2430adfe357b271")
  = hex "ffe4c006b073ba9bdc02cc1f398f87795d439c3a920463662dce9e38dac4fb1d0ae97f85b0e085fa83230bbb68f5932e".
Proof. vm_compute. reflexivity. Qed.

Example sha384_gen_len112 :
  sha384 (hex "5019d7891df8792e583581a46f987680b45f088aeec00c86922f97eb998fdce247cda7195d93aa3c8105f03dd8c41d9b1ca66c60b1d07e957b3a66417bb49852740399f826a79c53cf5464720b531e174e2b08b3786218874f2bf7efdc570633f5db3a6e76b90e62e637db479c8f3af3")
  = hex "96ce1a2092fef65c8827412c5cbdc6c650c7ddb35b62f13b81406711a480c787d306996829c1d75deed34771da35dab3".
Proof. vm_compute. reflexivity. Qed.

Example sha384_gen_len119 :
  sha384 (hex "5601caf23b73447da5e6279b89158fccbcee1ccf7a86fa83e0b5ce7da797144bba8591796e36cfc9881ce3354b3be0a62bfdb9890bc8789af65a148fcb313f8f5881f387c47bacd153e984cfe968a44fc2bebaf3591371eb6f0d1bbb9b1dfed9f873f65cad6a70128965d6ace16b03d561014f6d8fff42")
  = hex "e2d6d120f075b87acae29a9b16541eb181c55436530f2a95ab55d07e21734ce16fe0ffa511162f076b842ff817a396de".
Proof. vm_compute. reflexivity. Qed.

Example sha384_gen_len120 :
  sha384 (hex "5be9be5c5aef10ccf298ce92a392a717c47d3014054ce8812d3a040fb69f4db32c3c7ad97fd8f3569032d62dbdb2a4b13a5505b365c0729f717ac3de1baee6cd3cff4c156150bb50d87ea42cc77e2a8837526b323ac5ca4f8eef3f875be3f67ffa0cb349e41ad1c22c92d2112648cdb82b6935f78ddac963")
  = hex "8c02366445636dbffff6c57f3a4ca3c0839123d5d0d80b3ba3c745988ff66dc22bc671233db5cf7d3ab687a709a502df".
Proof. vm_compute. reflexivity. Qed.

Example sha384_gen_len127 :
  sha384 (hex "61d1b1c6786bdb1b3f4a7589bc0fc063cc0c44599113d57e7bc03ba1c4a7851b9ff4643a907b17e39749c9242f2968bd49ac52dcbeb76ca4ec9a712c6c2b8d0a207da5a3fe24cace5d13c489a593b1c0ace51d711c7623b3aed263531baaee25fca46f371bca3273cebfce756b25969af6d11b818bb650922ba13345e73bfc")
  = hex "db77a22999b274a09983ea321f57f8f50a808ac4592c117bd989c41e4db71417fb9454ab96cf3edff3cb843d50ed8113".
Proof. vm_compute. reflexivity. Qed.

Example sha384_gen_len128 :
  sha384 (hex "67b9a53097e6a76a8bfb1b80d68cd9afd49c589f1cd9c37cc8467234d2afbe8312ab4e9aa11d3c6f9f60bc1ca29f2bc858039e0518af66a866ba1f7abca7354703fbfe319cf9da4de2a8e4e684a937f82078ceb1fd287c17ceb4871fda70e6cbff3d2c24537b932371ecc9dab0015f7dc139000c8991d7c12d35c19692eb3866")
  = hex "97f1e4e60092697a8d877626fca9caccc4cc26ede8a106e371cfd023cf71816fe20573287f36dbce2430c6793ae4dd4a".
Proof. vm_compute. reflexivity. Qed.

Example sha384_gen_len129 :
  sha384 (hex "6ca1999ab56272b8d8adc277f00af1fadc2b6ce4a89fb17916cba8c6e0b7f6eb846338fab2c060fca677af141416efd3675beb2e71a661ade1dacec90c24dc85e77957bf39cde9cb673d044362bfbd30950c80f0ded9d57bee96abeb9a36de7101d6e9128a2bf4d31419c53ff4de29608ba1e696876c5ef02fca4fe73e9a73a033")
  = hex "f5b1c4d100fba5323150f8289b05bb9cfa2254c5a5f33e24f3962d21f84ecc0bbde71e387b84ff9501d00afa947d1f56".
Proof. vm_compute. reflexivity. Qed.

Example sha384_gen_len200 :
  sha384 (hex "72898c04d3dd3e07255e686f0a870a46e4ba802933659f776351df58eebe2f54f71a215bc3628489ad8ea20c878db2de76b23757cb9e5bb25cfb7c175da183c2cbf7b14dd6a2f84aebd224a040d443690a9f3230bf8b2edf0d78cfb759fdd617046ea5ffc1db5683b647c1a339bbf2425609cc208647e51f315fdc38e94aafda7bc2cea73985fcc1297a3221fa52179ed86cc8a99620f3ecc3b8903296b5b868cf295f8ff846eee6a37013b98e603081cf394b606d996d0f0501b7cd6d1dc0f062cdee16befdd627")
  = hex "c9bda28628022cc1da6c177d3f8934498a98c8051a3333068b67de85fdfa2c5f2587976c241cdd43ec7c4c9d85d5ffcc".
Proof. vm_compute. reflexivity. Qed.

(* ================= sha512 ================= *)

(* published: FIPS 180-4 / NIST example *)
Example sha512_pub_1 :
  sha512 (str "abc")
  = hex "ddaf35a193617abacc417349ae20413112e6fa4e89a97ea20a9eeee64b55d39a2192992a274fc1a836ba3c23a3feebbd454d4423643ce80e2a9ac94fa54ca49f".
Proof. vm_compute. reflexivity. Qed.

Example sha512_pub_2 :
  sha512 ([])
  = hex "cf83e1357eefb8bdf1542850d66d8007d620e4050b5715dc83f4a921d36ce9ce47d0d13c5d85f2b0ff8318d2877eec2f63b931bd47417a81a538327af927da3e".
Proof. vm_compute. reflexivity. Qed.

Example sha512_pub_3 :
  sha512 (str "abcdbcdecdefdefgefghfghighijhijkijkljklmklmnlmnomnopnopq")
  = hex "204a8fc6dda82f0a0ced7beb8e08a41657c16ef468b228a8279be331a703c33596fd15c13b1b07f9aa1d3bea57789ca031ad85c7a71dd70354ec631238ca3445".
Proof. vm_compute. reflexivity. Qed.

Example sha512_pub_4 :
  sha512 (str "abcdefghbcdefghicdefghijdefghijkefghijklfghijklmghijklmnhijklmnoijklmnopjklmnopqklmnopqrlmnopqrsmnopqrstnopqrstu")
  = hex "8e959b75dae313da8cf4f72814fc143f8f7779c6eb9f7fa17299aeadb6889018501d289e4900f7e4331b99dec4b5433ac7d329eeb6dd26545e96e55b874be909".
Proof. vm_compute. reflexivity. Qed.

(* generated with Go's standard library (x/crypto for md4): pseudo-random messages *)
Example sha512_gen_len0 :
  sha512 (hex "")
  = hex "cf83e1357eefb8bdf1542850d66d8007d620e4050b5715dc83f4a921d36ce9ce47d0d13c5d85f2b0ff8318d2877eec2f63b931bd47417a81a538327af927da3e".
Proof. vm_compute. reflexivity. Qed.

Example sha512_gen_len1 :
  sha512 (hex "24")
  = hex "840cfc6285878464c36c9aa819d8373729eda14c3e701fd37afec1d5baa2893944c696fc4017a520abfbb1347b62e6b858211d3ea7c7dd26319601fde119c3b4".
Proof. vm_compute. reflexivity. Qed.

Example sha512_gen_len55 :
  sha512 (hex "29c02ea34997e9063e5af2e2ba2dc96e7b757ca61d568c97748819ec3758500924c94376e621ac634d644a76b785c44cb34254413e0ba7")
  = hex "39e536a10a61cbbf31020c404edc951acbde2a1d0b8440fd8220b0bfacd8843bf1d755da83f61cad4f9c290f30f95a0e8f347edf19fd39853f0f02a8d9562e87".
Proof. vm_compute. reflexivity. Qed.

Example sha512_gen_len56 :
  sha512 (hex "2fa8220d6713b4558b0b99d9d4aae2ba830590eba91c7995c20e507e4560887197802cd7f7c3d1f0557b3d6e2afb8857c299a16a9803a179")
  = hex "9492bcf3d3ae4be3ffeeaa67f65ab75f121809b6d25ea5fc5d8fae5b561ccfb7268a2c4a28722ad34ee247c924df429ec523e28b6b9a66bae3fc10568cd884ca".
Proof. vm_compute. reflexivity. Qed.

Example sha512_gen_len57 :
  sha512 (hex "34901577858e80a4d8bd3fd0ee27fa058b94a43035e267920f9386105368c1d9093816370866f57c5c9231669c724b62d1f1ed93f1fa9b7d16")
  = hex "4be7a03cacefcef6e0256a3923d79be285154a596605656503993c3e781bb26c618e8e27c04e64cbe7ce7fb67ca853b30f2d97e0d82c5c171f3958571a174d85".
Proof. vm_compute. reflexivity. Qed.

Example sha512_gen_len63 :
  sha512 (hex "3a7909e1a40a4bf3256fe6c708a413519323b875c0a855905d19bda26170f9427cef00971909190964a9245e0ee90f6ee0483abc4bf2958290b9ac0839c1fb")
  = hex "6b9583788184dbe20c7115a959139644b96c099884c44958cd7289898ba6011480fc0c1f4e7cc4b4eb571f594697be5af9abd237cb92758f849d0d9d26605408".
Proof. vm_compute. reflexivity. Qed.

Example sha512_gen_len64 :
  sha512 (hex "3f61fc4bc285174172208dbe21212c9d9bb2ccba4c6e438daa9ff3346f7832aaefa7eaf82aab3e966bc017558160d279efa086e5a5e990870bd95b568a3ea299")
  = hex "1a445af9f4997ec4ed36739120c00253f4bd8d43489bb66e597a7fc5cd40a883212d0304768e31885b9d73ef62d27ed7c84be55aa6b5504332d723a502ca36c3".
Proof. vm_compute. reflexivity. Qed.

Example sha512_gen_len65 :
  sha512 (hex "4549f0b5e001e290bfd233b63b9e44e8a341e000d734318bf8242ac77d806a12615ed3583b4e622372d70a4df3d79684fef7d30efee18a8c86f909a4dabb49d7ad")
  = hex "2460cf3e05c40083207673dee560d9253d37f56c9d59d8edfbeb202918876b5927abc31d20e89091690d72dc7167fa44e8c06603c88dc1c49cdd8d03fd3bd1bf".
Proof. vm_compute. reflexivity. Qed.

Example sha512_gen_len111 :
  sha512 (hex "4b31e31fff7caedf0b83daad551b5d34abd0f44563fa1e8845aa61598b87a37ad416bdb84cf086b07aeefd45664d59900d4e203758d984900119b7f32a38f0149186406a89d28dd44abf45152c3d98dfd998567497b0bf232f49d4231c910e8df3427d813f09adb2430adfe357b271")
  = hex "444e8fdbbad428e8c178d5453ac25221c6e1cb0a55db75f2a99bfc3f75268300792308976433251a2fff8ae51184878803b23a3cfc8fea536456ec942132f3dd".
Proof. vm_compute. reflexivity. Qed.

Example sha512_gen_len112 :
  sha512 (hex "5019d7891df8792e583581a46f987680b45f088aeec00c86922f97eb998fdce247cda7195d93aa3c8105f03dd8c41d9b1ca66c60b1d07e957b3a66417bb49852740399f826a79c53cf5464720b531e174e2b08b3786218874f2bf7efdc570633f5db3a6e76b90e62e637db479c8f3af3")
  = hex "d646a872e0a26e0741b4ee22b1d54ac4eef23560d4a2689c06c1f39e04a4ba57c2f6c1005eb4ed0ac14395fc1c349e6086829e8ec44bcf1eb0096f01c8460471".
Proof. vm_compute. reflexivity. Qed.

Example sha512_gen_len119 :
  sha512 (hex "5601caf23b73447da5e6279b89158fccbcee1ccf7a86fa83e0b5ce7da797144bba8591796e36cfc9881ce3354b3be0a62bfdb9890bc8789af65a148fcb313f8f5881f387c47bacd153e984cfe968a44fc2bebaf3591371eb6f0d1bbb9b1dfed9f873f65cad6a70128965d6ace16b03d561014f6d8fff42")
  = hex "475eb3e044ceaddaa8803fc18cc9d95e17c8e1413004c471fa0987eef0e9698c6d7c266abfb1c333378e061ad914cbdaf2c7323579c8e2d339c3052265fc044f".
Proof. vm_compute. reflexivity. Qed.

Example sha512_gen_len120 :
  sha512 (hex "5be9be5c5aef10ccf298ce92a392a717c47d3014054ce8812d3a040fb69f4db32c3c7ad97fd8f3569032d62dbdb2a4b13a5505b365c0729f717ac3de1baee6cd3cff4c156150bb50d87ea42cc77e2a8837526b323ac5ca4f8eef3f875be3f67ffa0cb349e41ad1c22c92d2112648cdb82b6935f78ddac963")
  = hex "69326dca9dc9e6601896b260c99dfc4947ba8ccd57e1c86f75b29ec2126ab264d31fa5b9abfe6c9aa6ac057b8010e2e0d1a9526caf609a3f5cbfbb8151042c4c".
Proof. vm_compute. reflexivity. Qed.

Example sha512_gen_len127 :
  sha512 (hex "61d1b1c6786bdb1b3f4a7589bc0fc063cc0c44599113d57e7bc03ba1c4a7851b9ff4643a907b17e39749c9242f2968bd49ac52dcbeb76ca4ec9a712c6c2b8d0a207da5a3fe24cace5d13c489a593b1c0ace51d711c7623b3aed263531baaee25fca46f371bca3273cebfce756b25969af6d11b818bb650922ba13345e73bfc")
  = hex "ff45bd32519b795297c906aa3521a6da8b189c7d630770969abecea7361cfa942904729cdd6f13b8a2e42568c85a2a49474411cf399f315eef3658465d2704b9".
Proof. vm_compute. reflexivity. Qed.

Example sha512_gen_len128 :
  sha512 (hex "67b9a53097e6a76a8bfb1b80d68cd9afd49c589f1cd9c37cc8467234d2afbe8312ab4e9aa11d3c6f9f60bc1ca29f2bc858039e0518af66a866ba1f7abca7354703fbfe319cf9da4de2a8e4e684a937f82078ceb1fd287c17ceb4871fda70e6cbff3d2c24537b932371ecc9dab0015f7dc139000c8991d7c12d35c19692eb3866")
  = hex "5c6e46349109f241bd99d131ca66a2a2a0de46df3a8a1aebeebf6180e70ebb00121b8598afdea94355bef23c22afb68e9bfc605be99d88ea123c65d96ca2d9dd".
Proof. vm_compute. reflexivity. Qed.

Example sha512_gen_len129 :
  sha512 (hex "6ca1999ab56272b8d8adc277f00af1fadc2b6ce4a89fb17916cba8c6e0b7f6eb846338fab2c060fca677af141416efd3675beb2e71a661ade1dacec90c24dc85e77957bf39cde9cb673d044362bfbd30950c80f0ded9d57bee96abeb9a36de7101d6e9128a2bf4d31419c53ff4de29608ba1e696876c5ef02fca4fe73e9a73a033")
  = hex "6b8d464bac9265a7bf6b95c2b3d8263af10b24759f13a21bfe6c47ad9888ca78bc121b7891741b353c5d699533d334ed35ac9d0eebf90d1adef76132fc242c1b".
Proof. vm_compute. reflexivity. Qed.

Example sha512_gen_len200 :
  sha512 (hex "72898c04d3dd3e07255e686f0a870a46e4ba802933659f776351df58eebe2f54f71a215bc3628489ad8ea20c878db2de76b23757cb9e5bb25cfb7c175da183c2cbf7b14dd6a2f84aebd224a040d443690a9f3230bf8b2edf0d78cfb759fdd617046ea5ffc1db5683b647c1a339bbf2425609cc208647e51f315fdc38e94aafda7bc2cea73985fcc1297a3221fa52179ed86cc8a99620f3ecc3b8903296b5b868cf295f8ff846eee6a37013b98e603081cf394b606d996d0f0501b7cd6d1dc0f062cdee16befdd627")
  = hex "4e7a2dd38906d3321a0b972ec340a29f9dd86de6695191b3a67413edbf08dbfd12549272e3c783c4353e9cf7435db72d92417592840aebc7d84440d4aff32887".
Proof. vm_compute. reflexivity. Qed.

(* ================= md4 ================= *)

(* published: RFC 1320 A.5 *)
Example md4_pub_1 :
  md4 ([])
  = hex "31d6cfe0d16ae931b73c59d7e0c089c0".
Proof. vm_compute. reflexivity. Qed.

Example md4_pub_2 :
  md4 (str "a")
  = hex "bde52cb31de33e46245e05fbdbd6fb24".
Proof. vm_compute. reflexivity. Qed.

Example md4_pub_3 :
  md4 (str "abc")
  = hex "a448017aaf21d8525fc10ae87aa6729d".
Proof. vm_compute. reflexivity. Qed.

Example md4_pub_4 :
  md4 (str "message digest")
  = hex "d9130a8164549fe818874806e1c7014b".
Proof. vm_compute. reflexivity. Qed.

Example md4_pub_5 :
  md4 (str "abcdefghijklmnopqrstuvwxyz")
  = hex "d79e1c308aa5bbcdeea8ed63df412da9".
Proof. vm_compute. reflexivity. Qed.

Example md4_pub_6 :
  md4 (str "ABCDEFGHIJKLMNOPQRSTUVWXYZabcdefghijklmnopqrstuvwxyz0123456789")
  = hex "043f8582f241db351ce627e153e7f0e4".
Proof. vm_compute. reflexivity. Qed.

Example md4_pub_7 :
  md4 (str "12345678901234567890123456789012345678901234567890123456789012345678901234567890")
  = hex "e33b4ddc9c38f2199c3e7b164fcc0536".
Proof. vm_compute. reflexivity. Qed.

(* generated with Go's standard library (x/crypto for md4): pseudo-random messages *)
Example md4_gen_len0 :
  md4 (hex "")
  = hex "31d6cfe0d16ae931b73c59d7e0c089c0".
Proof. vm_compute. reflexivity. Qed.

Example md4_gen_len1 :
  md4 (hex "97")
  = hex "574716578072dc3223e8819c0a9c9d03".
Proof. vm_compute. reflexivity. Qed.

Example md4_gen_len55 :
  md4 (hex "9dcad08db7d57f983843a447729dd6bdf8c406929946e989ac00199cb52108edc0c1549606972167a88f6d079e4d9c1323d5a12542de86")
  = hex "f37540925cc7e8584d9bbad61f3c66a9".
Proof. vm_compute. reflexivity. Qed.

Example md4_gen_len56 :
  md4 (hex "a2b2c3f6d5514be785f44b3e8c1aef0900531ad7250cd786fa85502ec329415632793ef7173945f4afa661ff10c4601e322ced4e9cd680de")
  = hex "31638b3ff1e52384fa4d23280e7c52c5".
Proof. vm_compute. reflexivity. Qed.

Example md4_gen_len57 :
  md4 (hex "a89ab760f4cc1636d2a6f235a697085508e32e1cb0d2c584470b87c0d13179bea530285728dc6a81b7bd54f6823b232a41843a77f5ce7ae23b")
  = hex "db1fc04d515c7866e15fb1d32f599ade".
Proof. vm_compute. reflexivity. Qed.

Example md4_gen_len63 :
  md4 (hex "ad82abca1248e1841f57982cc01421a0107242613c98b3819490bd52df38b22618e811b7397e8e0dbed447eef5b2e73550db87a04fc574e7b5034d37178ffe")
  = hex "82b3fb5b489adbc2ec95ff4503f77f5b".
Proof. vm_compute. reflexivity. Qed.

Example md4_gen_len64 :
  md4 (hex "b36a9e3430c3add36b093f24da9139ec180156a6c75ea17fe216f4e4ed40ea8e8a9ffb184a21b29ac6ea3ae66729aa405f33d3c9a9bd6fec3023fb86680ca597")
  = hex "600364f34835ab75be1585c1970fa33b".
Proof. vm_compute. reflexivity. Qed.

Example md4_gen_len65 :
  md4 (hex "b852929e4f3f7822b8bae61bf30e523821906aec53248e7c2f9c2a77fb4823f6fd57e5785bc4d627cd012ddeda9f6e4c6e8a20f202b469f1ab43a9d4b8884dd5cb")
  = hex "721ea93a8c16597d2b73c612ff2354df".
Proof. vm_compute. reflexivity. Qed.

Example md4_gen_len111 :
  md4 (hex "be3b85086dba4471056c8c120d8b6b83291f7e31deea7c7a7d21610909505b5f700ecfd86c66fbb4d41820d64c1632577de16c1b5cac63f5266358220805f412afe7b3d320d19398a810e61ec1e44d0029f2352aa19474050039c80f9b2b59ea26678e26936acc4b9016eae2ab1379")
  = hex "d9dd911bfca37f753419249cf123b361".
Proof. vm_compute. reflexivity. Qed.

Example md4_gen_len112 :
  md4 (hex "c42379728b360fc0521e3309270883cf31ae92766ab06a77caa7989b175894c7e2c6b8397d091f41dc2f13cebf8df5628c39b944b5a45dfaa083067159829b4f92650c61bda6a2162da5067b9ffad3389e85e7698245cd69201becdb5af2519028004b14ca1a2dfc3243e547eff04268")
  = hex "4dd9835d7c7933e266d8c5c61eb3c4db".
Proof. vm_compute. reflexivity. Qed.

Example md4_gen_len119 :
  md4 (hex "c90b6cdcaab2db0f9fcfda0041859c1b393da6bbf5765875182cce2d2560cc2f557da2998dab43cde34606c53104b96d9b90056d0f9b57ff1ba4b5bfa9ff428d76e365ef5a7ab295b13a26d87d0f5970131898a963f726cd3ffe10a71ab849362b98070101ca8eacd570e1ac34cc0b4bd922fb53be4718")
  = hex "ff28ee753f98712c9a4e3105b4433e3e".
Proof. vm_compute. reflexivity. Qed.

Example md4_gen_len120 :
  md4 (hex "cff36046c82da65eeb8180f75b02b56741ccba00813c457265b205bf33680597c8348cf99e4e685aea5df9bda37b7c79aae852966993510496c4630df97beaca5a61be7ef84fc11336cf46355c25dfa887ac4ae845a97f315fe03473d97e41dc2d31c4ef387bef5c789ddd1079a9d52ea38ae1ddbc229f37")
  = hex "da8be7f5aa86a7190a232f75f45f8bf6".
Proof. vm_compute. reflexivity. Qed.

Example md4_gen_len127 :
  md4 (hex "d4db53afe6a972ac383227ee757fceb2495bce460d023370b3373b5141703eff3bec765aaff08ce7f274ecb516f14084b93f9ebfc28a4b0911e4115c4af891083edf170c9523d092bb6466923a3b66e1fc3ffb27265ad8957fc2583f9945398330ca80dd702b510c1bcad875be869e106ef2c767bafd2666ce5a2dfff6620f")
  = hex "1aea8896579535646f2f8f34af6b2371".
Proof. vm_compute. reflexivity. Qed.

Example md4_gen_len128 :
  md4 (hex "dac3471905243dfb85e4cee58efce6fe51eae28b98c8216d00bd72e450777668ada35fbac093b074f98bdfad8868038fc896ebe81c82460d8b04c0aa9a753845215d719a32f8e01040f986ef1850ec1971d2ad67070c31f99fa47b0b580b312932623dcaa7dbb2bcbdf7d4da036268f3395aadf2b8d8ad95d0efbb50a2124b24")
  = hex "82c82809931c91f6419c8e1f048a2475".
Proof. vm_compute. reflexivity. Qed.

Example md4_gen_len129 :
  md4 (hex "e0ab3a8323a0084ad29574dda879ff4a597af6d0248e0f6b4e43a9765e7fafd0205b491ad136d50001a2d2a5fbdfc79bd7ee3711757a401206246ef8eaf2df8305dbca28d0ccef8fc58ea64cf6667251e5665fa6e8bd8a5dbe869fd718d129cf34fbf9b8de8c136c6025d03e483f31d504c2937cb6b434c4d28448a14dc2875f86")
  = hex "39c76902b3a986d687593439a8312e9c".
Proof. vm_compute. reflexivity. Qed.

Example md4_gen_len200 :
  md4 (hex "e5932eed421bd4991f471bd4c2f6189561090a15af54fc689bc8df086c87e7389312337be2d8f98d08b9c69d6d568aa6e645843acf713a1781441d473b6e87c0e95923b66da1fe0d4924c5a9d57bf8895af910e6ca6fe3c1de69c3a3d89821753793b6a5153c741c0352cba38d1cfab8ce2a7806b58fbbf3d419d6f3f971c299cf2347a151e5cf53d7c1ac09eddf8ebf57152ae0e98667d009ec7bdc185ed983079cd656dc4c67dcefa4612d1262153e0e273809037d720da62fffdc73b3399d3bc807c5b6947877")
  = hex "ceee3ead8128d8c4a18976f9fbd611f1".
Proof. vm_compute. reflexivity. Qed.

(* ================= md5 ================= *)

(* published: RFC 1321 A.5 *)
Example md5_pub_1 :
  md5 ([])
  = hex "d41d8cd98f00b204e9800998ecf8427e".
Proof. vm_compute. reflexivity. Qed.

Example md5_pub_2 :
  md5 (str "a")
  = hex "0cc175b9c0f1b6a831c399e269772661".
Proof. vm_compute. reflexivity. Qed.

Example md5_pub_3 :
  md5 (str "abc")
  = hex "900150983cd24fb0d6963f7d28e17f72".
Proof. vm_compute. reflexivity. Qed.

Example md5_pub_4 :
  md5 (str "message digest")
  = hex "f96b697d7cb7938d525a2f31aaf161d0".
Proof. vm_compute. reflexivity. Qed.

Example md5_pub_5 :
  md5 (str "abcdefghijklmnopqrstuvwxyz")
  = hex "c3fcd3d76192e4007dfb496cca67e13b".
Proof. vm_compute. reflexivity. Qed.

Example md5_pub_6 :
  md5 (str "ABCDEFGHIJKLMNOPQRSTUVWXYZabcdefghijklmnopqrstuvwxyz0123456789")
  = hex "d174ab98d277d9f5a5611c2c9f419d9f".
Proof. vm_compute. reflexivity. Qed.

Example md5_pub_7 :
  md5 (str "12345678901234567890123456789012345678901234567890123456789012345678901234567890")
  = hex "57edf4a22be3c955ac49da2e2107b67a".
Proof. vm_compute. reflexivity. Qed.

(* generated with Go's standard library (x/crypto for md4): pseudo-random messages *)
Example md5_gen_len0 :
  md5 (hex "")
  = hex "d41d8cd98f00b204e9800998ecf8427e".
Proof. vm_compute. reflexivity. Qed.

Example md5_gen_len1 :
  md5 (hex "97")
  = hex "c444b580079efb1fe408f17f029e5d35".
Proof. vm_compute. reflexivity. Qed.

Example md5_gen_len55 :
  md5 (hex "9dcad08db7d57f983843a447729dd6bdf8c406929946e989ac00199cb52108edc0c1549606972167a88f6d079e4d9c1323d5a12542de86")
  = hex "5b5bf57954809b3cf48e3596a95fe706".
Proof. vm_compute. reflexivity. Qed.

Example md5_gen_len56 :
  md5 (hex "a2b2c3f6d5514be785f44b3e8c1aef0900531ad7250cd786fa85502ec329415632793ef7173945f4afa661ff10c4601e322ced4e9cd680de")
  = hex "42fd49aabd1f4a8b5b80ccf8167c9ca8".
Proof. vm_compute. reflexivity. Qed.

Example md5_gen_len57 :
  md5 (hex "a89ab760f4cc1636d2a6f235a697085508e32e1cb0d2c584470b87c0d13179bea530285728dc6a81b7bd54f6823b232a41843a77f5ce7ae23b")
  = hex "5dc1c1486b64578b0084d5fb291ea8d3".
Proof. vm_compute. reflexivity. Qed.

Example md5_gen_len63 :
  md5 (hex "ad82abca1248e1841f57982cc01421a0107242613c98b3819490bd52df38b22618e811b7397e8e0dbed447eef5b2e73550db87a04fc574e7b5034d37178ffe")
  = hex "e51afe35236d85ca97ca7b92689ecda4".
Proof. vm_compute. reflexivity. Qed.

Example md5_gen_len64 :
  md5 (hex "b36a9e3430c3add36b093f24da9139ec180156a6c75ea17fe216f4e4ed40ea8e8a9ffb184a21b29ac6ea3ae66729aa405f33d3c9a9bd6fec3023fb86680ca597")
  = hex "f550fb72a620c8d84fc0ef4a34834fdb".
Proof. vm_compute. reflexivity. Qed.

Example md5_gen_len65 :
  md5 (hex "b852929e4f3f7822b8bae61bf30e523821906aec53248e7c2f9c2a77fb4823f6fd57e5785bc4d627cd012ddeda9f6e4c6e8a20f202b469f1ab43a9d4b8884dd5cb")
  = hex "b661672ae42d0d68b5d509ae435247fc".
Proof. vm_compute. reflexivity. Qed.

Example md5_gen_len111 :
  md5 (hex "be3b85086dba4471056c8c120d8b6b83291f7e31deea7c7a7d21610909505b5f700ecfd86c66fbb4d41820d64c1632577de16c1b5cac63f5266358220805f412afe7b3d320d19398a810e61ec1e44d0029f2352aa19474050039c80f9b2b59ea26678e26936acc4b9016eae2ab1379")
  = hex "660decb1a349ad4b0ca0e0ab6b23f552".
Proof. vm_compute. reflexivity. Qed.

Example md5_gen_len112 :
  md5 (hex "c42379728b360fc0521e3309270883cf31ae92766ab06a77caa7989b175894c7e2c6b8397d091f41dc2f13cebf8df5628c39b944b5a45dfaa083067159829b4f92650c61bda6a2162da5067b9ffad3389e85e7698245cd69201becdb5af2519028004b14ca1a2dfc3243e547eff04268")
  = hex "7c9246498430527d7b7818ce69c14981".
Proof. vm_compute. reflexivity. Qed.

Example md5_gen_len119 :
  md5 (hex "c90b6cdcaab2db0f9fcfda0041859c1b393da6bbf5765875182cce2d2560cc2f557da2998dab43cde34606c53104b96d9b90056d0f9b57ff1ba4b5bfa9ff428d76e365ef5a7ab295b13a26d87d0f5970131898a963f726cd3ffe10a71ab849362b98070101ca8eacd570e1ac34cc0b4bd922fb53be4718")
  = hex "c8af766beb1a50edd2d72bd0747d5c5f".
Proof. vm_compute. reflexivity. Qed.

Example md5_gen_len120 :
  md5 (hex "cff36046c82da65eeb8180f75b02b56741ccba00813c457265b205bf33680597c8348cf99e4e685aea5df9bda37b7c79aae852966993510496c4630df97beaca5a61be7ef84fc11336cf46355c25dfa887ac4ae845a97f315fe03473d97e41dc2d31c4ef387bef5c789ddd1079a9d52ea38ae1ddbc229f37")
  = hex "6af324ca4e05f7ca8bb1400c6f127814".
Proof. vm_compute. reflexivity. Qed.

Example md5_gen_len127 :
  md5 (hex "d4db53afe6a972ac383227ee757fceb2495bce460d023370b3373b5141703eff3bec765aaff08ce7f274ecb516f14084b93f9ebfc28a4b0911e4115c4af891083edf170c9523d092bb6466923a3b66e1fc3ffb27265ad8957fc2583f9945398330ca80dd702b510c1bcad875be869e106ef2c767bafd2666ce5a2dfff6620f")
  = hex "10ab40e48c2933cedc4c8481ff85a089".
Proof. vm_compute. reflexivity. Qed.

Example md5_gen_len128 :
  md5 (hex "dac3471905243dfb85e4cee58efce6fe51eae28b98c8216d00bd72e450777668ada35fbac093b074f98bdfad8868038fc896ebe81c82460d8b04c0aa9a753845215d719a32f8e01040f986ef1850ec1971d2ad67070c31f99fa47b0b580b312932623dcaa7dbb2bcbdf7d4da036268f3395aadf2b8d8ad95d0efbb50a2124b24")
  = hex "268538602453cc1f29d192706bda0ca0".
Proof. vm_compute. reflexivity. Qed.

Example md5_gen_len129 :
  md5 (hex "e0ab3a8323a0084ad29574dda879ff4a597af6d0248e0f6b4e43a9765e7fafd0205b491ad136d50001a2d2a5fbdfc79bd7ee3711757a401206246ef8eaf2df8305dbca28d0ccef8fc58ea64cf6667251e5665fa6e8bd8a5dbe869fd718d129cf34fbf9b8de8c136c6025d03e483f31d504c2937cb6b434c4d28448a14dc2875f86")
  = hex "24d08a8f7c41eb61c876c173e50b59de".
Proof. vm_compute. reflexivity. Qed.

Example md5_gen_len200 :
  md5 (hex "e5932eed421bd4991f471bd4c2f6189561090a15af54fc689bc8df086c87e7389312337be2d8f98d08b9c69d6d568aa6e645843acf713a1781441d473b6e87c0e95923b66da1fe0d4924c5a9d57bf8895af910e6ca6fe3c1de69c3a3d89821753793b6a5153c741c0352cba38d1cfab8ce2a7806b58fbbf3d419d6f3f971c299cf2347a151e5cf53d7c1ac09eddf8ebf57152ae0e98667d009ec7bdc185ed983079cd656dc4c67dcefa4612d1262153e0e273809037d720da62fffdc73b3399d3bc807c5b6947877")
  = hex "b2d84f58e3900807f43817b6d96a4a9d".
Proof. vm_compute. reflexivity. Qed.

(* ================= hmac_md5 ================= *)

(* published: RFC 2202 section 2 *)
Example hmac_md5_pub_1 :
  hmac_md5 (hex "0b0b0b0b0b0b0b0b0b0b0b0b0b0b0b0b")
    (str "Hi There")
  = hex "9294727a3638bb1c13f48ef8158bfc9d".
Proof. vm_compute. reflexivity. Qed.

Example hmac_md5_pub_2 :
  hmac_md5 (str "Jefe")
    (str "what do ya want for nothing?")
  = hex "750c783e6ab0b503eaa86e310a5db738".
Proof. vm_compute. reflexivity. Qed.

Example hmac_md5_pub_3 :
  hmac_md5 (hex "aaaaaaaaaaaaaaaaaaaaaaaaaaaaaaaa")
    (hex "dddddddddddddddddddddddddddddddddddddddddddddddddddddddddddddddddddddddddddddddddddddddddddddddddddd")
  = hex "56be34521d144c88dbb8c733f0e8b3f6".
Proof. vm_compute. reflexivity. Qed.

Example hmac_md5_pub_4 :
  hmac_md5 (hex "0102030405060708090a0b0c0d0e0f10111213141516171819")
    (hex "cdcdcdcdcdcdcdcdcdcdcdcdcdcdcdcdcdcdcdcdcdcdcdcdcdcdcdcdcdcdcdcdcdcdcdcdcdcdcdcdcdcdcdcdcdcdcdcdcdcd")
  = hex "697eaf0aca3a3aea3a75164746ffaa79".
Proof. vm_compute. reflexivity. Qed.

Example hmac_md5_pub_5 :
  hmac_md5 (hex "0c0c0c0c0c0c0c0c0c0c0c0c0c0c0c0c")
    (str "Test With Truncation")
  = hex "56461ef2342edc00f9bab995690efd4c".
Proof. vm_compute. reflexivity. Qed.

Example hmac_md5_pub_6 :
  hmac_md5 (hex "aaaaaaaaaaaaaaaaaaaaaaaaaaaaaaaaaaaaaaaaaaaaaaaaaaaaaaaaaaaaaaaaaaaaaaaaaaaaaaaaaaaaaaaaaaaaaaaaaaaaaaaaaaaaaaaaaaaaaaaaaaaaaaaaaaaaaaaaaaaaaaaaaaaaaaaaaaaaaaaa")
    (str "Test Using Larger Than Block-Size Key - Hash Key First")
  = hex "6b1ab7fe4bd7bf8f0b62e6ce61b9d0cd".
Proof. vm_compute. reflexivity. Qed.

Example hmac_md5_pub_7 :
  hmac_md5 (hex "aaaaaaaaaaaaaaaaaaaaaaaaaaaaaaaaaaaaaaaaaaaaaaaaaaaaaaaaaaaaaaaaaaaaaaaaaaaaaaaaaaaaaaaaaaaaaaaaaaaaaaaaaaaaaaaaaaaaaaaaaaaaaaaaaaaaaaaaaaaaaaaaaaaaaaaaaaaaaaaa")
    (str "Test Using Larger Than Block-Size Key and Larger Than One Block-Size Data")
  = hex "6f630fad67cda0ee1fb1f562db3aa53e".
Proof. vm_compute. reflexivity. Qed.

(* generated with Go's crypto/hmac: key lengths below / at / above the block size *)
Example hmac_md5_gen_k0_m0 :
  hmac_md5 ([])
    ([])
  = hex "74e6f7298a9c2d168935f58c001bad88".
Proof. vm_compute. reflexivity. Qed.

Example hmac_md5_gen_k0_m64 :
  hmac_md5 ([])
    (hex "ec1176715778a8230faf3710f288befa260dad71194432c4d3b8ae85c0a19b8956b7d39941087e42e96c33898a5d09643251a03752e561c8c477815665ef81d7")
  = hex "319268d71d41fc27d5da18f600199782".
Proof. vm_compute. reflexivity. Qed.

Example hmac_md5_gen_k0_m200 :
  hmac_md5 ([])
    (hex "fcc951afb2eb0a10f6c42bf53fff08dd3ebae941bc96fbbcbc49513beab945c2aedd90ba74f0ebe9ffb10c71e1c253865f5785b35fcc50d634d78d41566576905b5c412ccfd1ce92b06d67c5ac08c69873bec69faf078605758ae09a4cb980bc127ef00c56686507053a3eeb70c3588f065ac20f5772796933131783f639c427565fbce74fb23809efbda5de2f8a532e13792390b75ad9e21a8a1039b00df6f3200058cbb4cea01b52ffc5a0219556790c4c2534e4342c17c76abeff0cff2086db440d4d3203cb85")
  = hex "b5eb39207dbf8009e0cf27f681f877f0".
Proof. vm_compute. reflexivity. Qed.

Example hmac_md5_gen_k1_m55 :
  hmac_md5 (hex "0c")
    (hex "e628830739fdddd4c3fe9118d80ba5af1e7e992c8e7e44c6863277f2b2996321e3ffe939306559b5e1553f9217e7455923f9530ef9ee67")
  = hex "99a747cb25535812fed843a481d8f972".
Proof. vm_compute. reflexivity. Qed.

Example hmac_md5_gen_k1_m128 :
  hmac_md5 (hex "0c")
    (hex "f7e15d45946f3fc1a91285fe2682ef92362bd5fc30d00dbf6ec31ba9dcb10c5a3b26a75a634dc65cf89a19796f4b907b5000398a06d556d1bab7def205e8cf5277dee89e32fdbe132bd84768cef24060ff2b155fce562da155a7bcce8df388160fe5331f1fb80457630d42862be78ead3bf2dc845997f23a317e8a324b8a88ed")
  = hex "e0bf83eccd16c0ffdd47c77d0165ffba".
Proof. vm_compute. reflexivity. Qed.

Example hmac_md5_gen_k16_m1 :
  hmac_md5 (hex "119e4866a87627baad5b8ebfe980270c")
    (hex "e0")
  = hex "457bf44790e1e6457041bd056a835867".
Proof. vm_compute. reflexivity. Qed.

Example hmac_md5_gen_k16_m111 :
  hmac_md5 (hex "119e4866a87627baad5b8ebfe980270c")
    (hex "f1f96adb76f474725c61de070c05d6462e9cc1b6a50a20c1213ee417cea9d4f1c96ebdf952aaa2cff0832681fcd4cc7041a8ec60acdd5bcc3f9730a4b56c281593608f109428af95a643270bf0ddba278a986320eca4d43d35c59802cd2d90700d4d7731e808a3a7c0e04622e60ac5")
  = hex "592318d0fd2824e803b7672b0ce6b213".
Proof. vm_compute. reflexivity. Qed.

Example hmac_md5_gen_k63_m0 :
  hmac_md5 (hex "17873cd0c7f2f209fa0c35b602fd40587214782f0bb86a9438f1597ab8e9ac825df2b859ffe6ad5017faa76c8a502f52a6e69fd85fa649183fc242499e9c37")
    ([])
  = hex "c2966365a52694e56668ee6e5414aa42".
Proof. vm_compute. reflexivity. Qed.

Example hmac_md5_gen_k63_m64 :
  hmac_md5 (hex "17873cd0c7f2f209fa0c35b602fd40587214782f0bb86a9438f1597ab8e9ac825df2b859ffe6ad5017faa76c8a502f52a6e69fd85fa649183fc242499e9c37")
    (hex "ec1176715778a8230faf3710f288befa260dad71194432c4d3b8ae85c0a19b8956b7d39941087e42e96c33898a5d09643251a03752e561c8c477815665ef81d7")
  = hex "6cf9f1de785c1a5ce8cbaf71fb19ecce".
Proof. vm_compute. reflexivity. Qed.

Example hmac_md5_gen_k63_m200 :
  hmac_md5 (hex "17873cd0c7f2f209fa0c35b602fd40587214782f0bb86a9438f1597ab8e9ac825df2b859ffe6ad5017faa76c8a502f52a6e69fd85fa649183fc242499e9c37")
    (hex "fcc951afb2eb0a10f6c42bf53fff08dd3ebae941bc96fbbcbc49513beab945c2aedd90ba74f0ebe9ffb10c71e1c253865f5785b35fcc50d634d78d41566576905b5c412ccfd1ce92b06d67c5ac08c69873bec69faf078605758ae09a4cb980bc127ef00c56686507053a3eeb70c3588f065ac20f5772796933131783f639c427565fbce74fb23809efbda5de2f8a532e13792390b75ad9e21a8a1039b00df6f3200058cbb4cea01b52ffc5a0219556790c4c2534e4342c17c76abeff0cff2086db440d4d3203cb85")
  = hex "97f9d098f8733cee2f3fc29c30f05862".
Proof. vm_compute. reflexivity. Qed.

Example hmac_md5_gen_k64_m55 :
  hmac_md5 (hex "1c6f2f3ae56dbe5847bedcad1c7a59a47aa38d74977e58918676900cc7f1e5ebcfa9a2b91088d1dd1e119a63fcc7f25db53dec02b99d431dbae2f197ee19de0d")
    (hex "e628830739fdddd4c3fe9118d80ba5af1e7e992c8e7e44c6863277f2b2996321e3ffe939306559b5e1553f9217e7455923f9530ef9ee67")
  = hex "6cb88a57500ee187d1814acd99784db0".
Proof. vm_compute. reflexivity. Qed.

Example hmac_md5_gen_k64_m128 :
  hmac_md5 (hex "1c6f2f3ae56dbe5847bedcad1c7a59a47aa38d74977e58918676900cc7f1e5ebcfa9a2b91088d1dd1e119a63fcc7f25db53dec02b99d431dbae2f197ee19de0d")
    (hex "f7e15d45946f3fc1a91285fe2682ef92362bd5fc30d00dbf6ec31ba9dcb10c5a3b26a75a634dc65cf89a19796f4b907b5000398a06d556d1bab7def205e8cf5277dee89e32fdbe132bd84768cef24060ff2b155fce562da155a7bcce8df388160fe5331f1fb80457630d42862be78ead3bf2dc845997f23a317e8a324b8a88ed")
  = hex "a55218a45e270d19b12c0c5e3126dd72".
Proof. vm_compute. reflexivity. Qed.

Example hmac_md5_gen_k64_m200 :
  hmac_md5 (hex "1c6f2f3ae56dbe5847bedcad1c7a59a47aa38d74977e58918676900cc7f1e5ebcfa9a2b91088d1dd1e119a63fcc7f25db53dec02b99d431dbae2f197ee19de0d")
    (hex "fcc951afb2eb0a10f6c42bf53fff08dd3ebae941bc96fbbcbc49513beab945c2aedd90ba74f0ebe9ffb10c71e1c253865f5785b35fcc50d634d78d41566576905b5c412ccfd1ce92b06d67c5ac08c69873bec69faf078605758ae09a4cb980bc127ef00c56686507053a3eeb70c3588f065ac20f5772796933131783f639c427565fbce74fb23809efbda5de2f8a532e13792390b75ad9e21a8a1039b00df6f3200058cbb4cea01b52ffc5a0219556790c4c2534e4342c17c76abeff0cff2086db440d4d3203cb85")
  = hex "a95a5ac7e6f9111c9f18089f9bb878fc".
Proof. vm_compute. reflexivity. Qed.

Example hmac_md5_gen_k65_m1 :
  hmac_md5 (hex "225723a404e989a7946f82a436f771ef8232a1b92244468fd3fcc79ed5f91d5342618c1a212bf66a26288e5b6f3eb669c495382b13953d2235039fe63f95854bdb")
    (hex "e0")
  = hex "24b2ae52ef7145befe67fa23ee60f1ce".
Proof. vm_compute. reflexivity. Qed.

Example hmac_md5_gen_k65_m111 :
  hmac_md5 (hex "225723a404e989a7946f82a436f771ef8232a1b92244468fd3fcc79ed5f91d5342618c1a212bf66a26288e5b6f3eb669c495382b13953d2235039fe63f95854bdb")
    (hex "f1f96adb76f474725c61de070c05d6462e9cc1b6a50a20c1213ee417cea9d4f1c96ebdf952aaa2cff0832681fcd4cc7041a8ec60acdd5bcc3f9730a4b56c281593608f109428af95a643270bf0ddba278a986320eca4d43d35c59802cd2d90700d4d7731e808a3a7c0e04622e60ac5")
  = hex "8086f52e10a486ee3e8c428e6d7251be".
Proof. vm_compute. reflexivity. Qed.

Example hmac_md5_gen_k100_m0 :
  hmac_md5 (hex "283f160e226455f6e121299b50748a3b8ac1b5feae0a348c2181fd31e30056bbb518767a32ce1af72d3f8153e1b57974d3ec85546c8d3727b0234d348f122d88bf4cbfde1bcee172e926d78d9c8a7705d53f02fdd154e3a28200baaff1137af4bd4f7d35")
    ([])
  = hex "d6ff43dee386fe23115cb6f1929bf625".
Proof. vm_compute. reflexivity. Qed.

Example hmac_md5_gen_k100_m64 :
  hmac_md5 (hex "283f160e226455f6e121299b50748a3b8ac1b5feae0a348c2181fd31e30056bbb518767a32ce1af72d3f8153e1b57974d3ec85546c8d3727b0234d348f122d88bf4cbfde1bcee172e926d78d9c8a7705d53f02fdd154e3a28200baaff1137af4bd4f7d35")
    (hex "ec1176715778a8230faf3710f288befa260dad71194432c4d3b8ae85c0a19b8956b7d39941087e42e96c33898a5d09643251a03752e561c8c477815665ef81d7")
  = hex "8c8c006ca83118b86a265036ddc2ac85".
Proof. vm_compute. reflexivity. Qed.

Example hmac_md5_gen_k100_m200 :
  hmac_md5 (hex "283f160e226455f6e121299b50748a3b8ac1b5feae0a348c2181fd31e30056bbb518767a32ce1af72d3f8153e1b57974d3ec85546c8d3727b0234d348f122d88bf4cbfde1bcee172e926d78d9c8a7705d53f02fdd154e3a28200baaff1137af4bd4f7d35")
    (hex "fcc951afb2eb0a10f6c42bf53fff08dd3ebae941bc96fbbcbc49513beab945c2aedd90ba74f0ebe9ffb10c71e1c253865f5785b35fcc50d634d78d41566576905b5c412ccfd1ce92b06d67c5ac08c69873bec69faf078605758ae09a4cb980bc127ef00c56686507053a3eeb70c3588f065ac20f5772796933131783f639c427565fbce74fb23809efbda5de2f8a532e13792390b75ad9e21a8a1039b00df6f3200058cbb4cea01b52ffc5a0219556790c4c2534e4342c17c76abeff0cff2086db440d4d3203cb85")
  = hex "7fecd0f39c6d52a1b1389cc4859b6bdd".
Proof. vm_compute. reflexivity. Qed.

Example hmac_md5_gen_k131_m55 :
  hmac_md5 (hex "2d270a7840e020452ed3d0926af1a3879350c94439d0228a6e0734c3f1088e2327d05fda43703e833455744b542c3d7fe243d17dc684312b2b43fc83df8fd4c5a3ca186cb8a3f1f06ebbf7ea7aa0fd3d49d2b33db2063c06a2e2de7bb1d9729abfe83922fb5b2db6fbe208f9ca8e92500b87e6439c92c8b056bd3a40d5c1ebdc61ec2d")
    (hex "e628830739fdddd4c3fe9118d80ba5af1e7e992c8e7e44c6863277f2b2996321e3ffe939306559b5e1553f9217e7455923f9530ef9ee67")
  = hex "2e2ad48406896e4a791f894e1226a962".
Proof. vm_compute. reflexivity. Qed.

Example hmac_md5_gen_k131_m128 :
  hmac_md5 (hex "2d270a7840e020452ed3d0926af1a3879350c94439d0228a6e0734c3f1088e2327d05fda43703e833455744b542c3d7fe243d17dc684312b2b43fc83df8fd4c5a3ca186cb8a3f1f06ebbf7ea7aa0fd3d49d2b33db2063c06a2e2de7bb1d9729abfe83922fb5b2db6fbe208f9ca8e92500b87e6439c92c8b056bd3a40d5c1ebdc61ec2d")
    (hex "f7e15d45946f3fc1a91285fe2682ef92362bd5fc30d00dbf6ec31ba9dcb10c5a3b26a75a634dc65cf89a19796f4b907b5000398a06d556d1bab7def205e8cf5277dee89e32fdbe132bd84768cef24060ff2b155fce562da155a7bcce8df388160fe5331f1fb80457630d42862be78ead3bf2dc845997f23a317e8a324b8a88ed")
  = hex "91222a1d0b3e9ac8737b9a0e4ce5dcb9".
Proof. vm_compute. reflexivity. Qed.

(* ================= hmac_sha1 ================= *)

(* published: RFC 2202 section 3 *)
Example hmac_sha1_pub_1 :
  hmac_sha1 (hex "0b0b0b0b0b0b0b0b0b0b0b0b0b0b0b0b0b0b0b0b")
    (str "Hi There")
  = hex "b617318655057264e28bc0b6fb378c8ef146be00".
Proof. vm_compute. reflexivity. Qed.

Example hmac_sha1_pub_2 :
  hmac_sha1 (str "Jefe")
    (str "what do ya want for nothing?")
  = hex "effcdf6ae5eb2fa2d27416d5f184df9c259a7c79".
Proof. vm_compute. reflexivity. Qed.

Example hmac_sha1_pub_3 :
  hmac_sha1 (hex "aaaaaaaaaaaaaaaaaaaaaaaaaaaaaaaaaaaaaaaa")
    (hex "dddddddddddddddddddddddddddddddddddddddddddddddddddddddddddddddddddddddddddddddddddddddddddddddddddd")
  = hex "125d7342b9ac11cd91a39af48aa17b4f63f175d3".
Proof. vm_compute. reflexivity. Qed.

Example hmac_sha1_pub_4 :
  hmac_sha1 (hex "0102030405060708090a0b0c0d0e0f10111213141516171819")
    (hex "cdcdcdcdcdcdcdcdcdcdcdcdcdcdcdcdcdcdcdcdcdcdcdcdcdcdcdcdcdcdcdcdcdcdcdcdcdcdcdcdcdcdcdcdcdcdcdcdcdcd")
  = hex "4c9007f4026250c6bc8414f9bf50c86c2d7235da".
Proof. vm_compute. reflexivity. Qed.

Example hmac_sha1_pub_5 :
  hmac_sha1 (hex "0c0c0c0c0c0c0c0c0c0c0c0c0c0c0c0c0c0c0c0c")
    (str "Test With Truncation")
  = hex "4c1a03424b55e07fe7f27be1d58bb9324a9a5a04".
Proof. vm_compute. reflexivity. Qed.

Example hmac_sha1_pub_6 :
  hmac_sha1 (hex "aaaaaaaaaaaaaaaaaaaaaaaaaaaaaaaaaaaaaaaaaaaaaaaaaaaaaaaaaaaaaaaaaaaaaaaaaaaaaaaaaaaaaaaaaaaaaaaaaaaaaaaaaaaaaaaaaaaaaaaaaaaaaaaaaaaaaaaaaaaaaaaaaaaaaaaaaaaaaaaa")
    (str "Test Using Larger Than Block-Size Key - Hash Key First")
  = hex "aa4ae5e15272d00e95705637ce8a3b55ed402112".
Proof. vm_compute. reflexivity. Qed.

Example hmac_sha1_pub_7 :
  hmac_sha1 (hex "aaaaaaaaaaaaaaaaaaaaaaaaaaaaaaaaaaaaaaaaaaaaaaaaaaaaaaaaaaaaaaaaaaaaaaaaaaaaaaaaaaaaaaaaaaaaaaaaaaaaaaaaaaaaaaaaaaaaaaaaaaaaaaaaaaaaaaaaaaaaaaaaaaaaaaaaaaaaaaaa")
    (str "Test Using Larger Than Block-Size Key and Larger Than One Block-Size Data")
  = hex "e8e99d0f45237d786d6bbaa7965c7808bbff1a91".
Proof. vm_compute. reflexivity. Qed.

(* generated with Go's crypto/hmac: key lengths below / at / above the block size *)
Example hmac_sha1_gen_k0_m0 :
  hmac_sha1 ([])
    ([])
  = hex "fbdb1d1b18aa6c08324b7d64b71fb76370690e1d".
Proof. vm_compute. reflexivity. Qed.

Example hmac_sha1_gen_k0_m64 :
  hmac_sha1 ([])
    (hex "f1f96adb76f474725c61de070c05d6462e9cc1b6a50a20c1213ee417cea9d4f1c96ebdf952aaa2cff0832681fcd4cc7041a8ec60acdd5bcc3f9730a4b56c2815")
  = hex "aca38983dc3d4afb9a340cc7e70c6c6d6abe5852".
Proof. vm_compute. reflexivity. Qed.

Example hmac_sha1_gen_k0_m200 :
  hmac_sha1 ([])
    (hex "02b14519d166d65f4376d2ec597c20294649fd86475ce9ba09ce88cdf8c17d2a21957a1a85920f7506c8ff69543917916eaed2dcb9c44adbaff83b8fa6e21ecd3fda9bba6ca6dd10350287228b1d4cd0e85278de90b9df69956c04660c8078631417acfa8d19c7b7a8673a50b5a02172d0c2a899554d009835a7a5d4a1e900619f549a70711777c7fe2d4a3b8d6998598603feac13452a6cd11a436de4a1c9951f0f31452581bc6f997f4f44d2555ab9ab8cfb4b5a1dffc16d2a67da535e8e1c1b3924373be989b3")
  = hex "f3fba4a9253b9a5d316dd6414362fd6e9832348b".
Proof. vm_compute. reflexivity. Qed.

Example hmac_sha1_gen_k1_m55 :
  hmac_sha1 (hex "11")
    (hex "ec1176715778a8230faf3710f288befa260dad71194432c4d3b8ae85c0a19b8956b7d39941087e42e96c33898a5d09643251a03752e561")
  = hex "be8259539a6a9b56a78be37fa8a4a3a744a48d97".
Proof. vm_compute. reflexivity. Qed.

Example hmac_sha1_gen_k1_m128 :
  hmac_sha1 (hex "11")
    (hex "fcc951afb2eb0a10f6c42bf53fff08dd3ebae941bc96fbbcbc49513beab945c2aedd90ba74f0ebe9ffb10c71e1c253865f5785b35fcc50d634d78d41566576905b5c412ccfd1ce92b06d67c5ac08c69873bec69faf078605758ae09a4cb980bc127ef00c56686507053a3eeb70c3588f065ac20f5772796933131783f639c427")
  = hex "8e9a0ddb09ba06ba231294bee88b3b9f3c012afc".
Proof. vm_compute. reflexivity. Qed.

Example hmac_sha1_gen_k16_m1 :
  hmac_sha1 (hex "17873cd0c7f2f209fa0c35b602fd4058")
    (hex "e6")
  = hex "941241657a7a19060b03755dbb9114e5b5ff1c71".
Proof. vm_compute. reflexivity. Qed.

Example hmac_sha1_gen_k16_m111 :
  hmac_sha1 (hex "17873cd0c7f2f209fa0c35b602fd4058")
    (hex "f7e15d45946f3fc1a91285fe2682ef92362bd5fc30d00dbf6ec31ba9dcb10c5a3b26a75a634dc65cf89a19796f4b907b5000398a06d556d1bab7def205e8cf5277dee89e32fdbe132bd84768cef24060ff2b155fce562da155a7bcce8df388160fe5331f1fb80457630d42862be78e")
  = hex "7868488f3b8e2003bda2e04ee4fbc0c4374f0404".
Proof. vm_compute. reflexivity. Qed.

Example hmac_sha1_gen_k63_m0 :
  hmac_sha1 (hex "1c6f2f3ae56dbe5847bedcad1c7a59a47aa38d74977e58918676900cc7f1e5ebcfa9a2b91088d1dd1e119a63fcc7f25db53dec02b99d431dbae2f197ee19de")
    ([])
  = hex "903e2687ff50866f7ddda744070bec0ba898337d".
Proof. vm_compute. reflexivity. Qed.

Example hmac_sha1_gen_k63_m64 :
  hmac_sha1 (hex "1c6f2f3ae56dbe5847bedcad1c7a59a47aa38d74977e58918676900cc7f1e5ebcfa9a2b91088d1dd1e119a63fcc7f25db53dec02b99d431dbae2f197ee19de")
    (hex "f1f96adb76f474725c61de070c05d6462e9cc1b6a50a20c1213ee417cea9d4f1c96ebdf952aaa2cff0832681fcd4cc7041a8ec60acdd5bcc3f9730a4b56c2815")
  = hex "60457b914405d00e68a9c80827b411cf5e5e3a23".
Proof. vm_compute. reflexivity. Qed.

Example hmac_sha1_gen_k63_m200 :
  hmac_sha1 (hex "1c6f2f3ae56dbe5847bedcad1c7a59a47aa38d74977e58918676900cc7f1e5ebcfa9a2b91088d1dd1e119a63fcc7f25db53dec02b99d431dbae2f197ee19de")
    (hex "02b14519d166d65f4376d2ec597c20294649fd86475ce9ba09ce88cdf8c17d2a21957a1a85920f7506c8ff69543917916eaed2dcb9c44adbaff83b8fa6e21ecd3fda9bba6ca6dd10350287228b1d4cd0e85278de90b9df69956c04660c8078631417acfa8d19c7b7a8673a50b5a02172d0c2a899554d009835a7a5d4a1e900619f549a70711777c7fe2d4a3b8d6998598603feac13452a6cd11a436de4a1c9951f0f31452581bc6f997f4f44d2555ab9ab8cfb4b5a1dffc16d2a67da535e8e1c1b3924373be989b3")
  = hex "a42bfdf4f742c3d26b95a5fba202709a08545853".
Proof. vm_compute. reflexivity. Qed.

Example hmac_sha1_gen_k64_m55 :
  hmac_sha1 (hex "225723a404e989a7946f82a436f771ef8232a1b92244468fd3fcc79ed5f91d5342618c1a212bf66a26288e5b6f3eb669c495382b13953d2235039fe63f95854b")
    (hex "ec1176715778a8230faf3710f288befa260dad71194432c4d3b8ae85c0a19b8956b7d39941087e42e96c33898a5d09643251a03752e561")
  = hex "d7f2e60bb97da61ab75b6e396cb1a61211c84388".
Proof. vm_compute. reflexivity. Qed.

Example hmac_sha1_gen_k64_m128 :
  hmac_sha1 (hex "225723a404e989a7946f82a436f771ef8232a1b92244468fd3fcc79ed5f91d5342618c1a212bf66a26288e5b6f3eb669c495382b13953d2235039fe63f95854b")
    (hex "fcc951afb2eb0a10f6c42bf53fff08dd3ebae941bc96fbbcbc49513beab945c2aedd90ba74f0ebe9ffb10c71e1c253865f5785b35fcc50d634d78d41566576905b5c412ccfd1ce92b06d67c5ac08c69873bec69faf078605758ae09a4cb980bc127ef00c56686507053a3eeb70c3588f065ac20f5772796933131783f639c427")
  = hex "4f99c072a6e95bec51cc48c6e63d654df7a9fec3".
Proof. vm_compute. reflexivity. Qed.

Example hmac_sha1_gen_k64_m200 :
  hmac_sha1 (hex "225723a404e989a7946f82a436f771ef8232a1b92244468fd3fcc79ed5f91d5342618c1a212bf66a26288e5b6f3eb669c495382b13953d2235039fe63f95854b")
    (hex "02b14519d166d65f4376d2ec597c20294649fd86475ce9ba09ce88cdf8c17d2a21957a1a85920f7506c8ff69543917916eaed2dcb9c44adbaff83b8fa6e21ecd3fda9bba6ca6dd10350287228b1d4cd0e85278de90b9df69956c04660c8078631417acfa8d19c7b7a8673a50b5a02172d0c2a899554d009835a7a5d4a1e900619f549a70711777c7fe2d4a3b8d6998598603feac13452a6cd11a436de4a1c9951f0f31452581bc6f997f4f44d2555ab9ab8cfb4b5a1dffc16d2a67da535e8e1c1b3924373be989b3")
  = hex "9f2db69fde738108ed18f932491c081864391a78".
Proof. vm_compute. reflexivity. Qed.

Example hmac_sha1_gen_k65_m1 :
  hmac_sha1 (hex "283f160e226455f6e121299b50748a3b8ac1b5feae0a348c2181fd31e30056bbb518767a32ce1af72d3f8153e1b57974d3ec85546c8d3727b0234d348f122d88bf")
    (hex "e6")
  = hex "da3510c127d4d39714f5d8e0d119506667cd15bb".
Proof. vm_compute. reflexivity. Qed.

Example hmac_sha1_gen_k65_m111 :
  hmac_sha1 (hex "283f160e226455f6e121299b50748a3b8ac1b5feae0a348c2181fd31e30056bbb518767a32ce1af72d3f8153e1b57974d3ec85546c8d3727b0234d348f122d88bf")
    (hex "f7e15d45946f3fc1a91285fe2682ef92362bd5fc30d00dbf6ec31ba9dcb10c5a3b26a75a634dc65cf89a19796f4b907b5000398a06d556d1bab7def205e8cf5277dee89e32fdbe132bd84768cef24060ff2b155fce562da155a7bcce8df388160fe5331f1fb80457630d42862be78e")
  = hex "b21b218b2a2ca906d18a9fc41138c21419ee2bc1".
Proof. vm_compute. reflexivity. Qed.

Example hmac_sha1_gen_k100_m0 :
  hmac_sha1 (hex "2d270a7840e020452ed3d0926af1a3879350c94439d0228a6e0734c3f1088e2327d05fda43703e833455744b542c3d7fe243d17dc684312b2b43fc83df8fd4c5a3ca186cb8a3f1f06ebbf7ea7aa0fd3d49d2b33db2063c06a2e2de7bb1d9729abfe83922")
    ([])
  = hex "b5ae2a33c579ec51c52090b69cd2e35dbfc0f37c".
Proof. vm_compute. reflexivity. Qed.

Example hmac_sha1_gen_k100_m64 :
  hmac_sha1 (hex "2d270a7840e020452ed3d0926af1a3879350c94439d0228a6e0734c3f1088e2327d05fda43703e833455744b542c3d7fe243d17dc684312b2b43fc83df8fd4c5a3ca186cb8a3f1f06ebbf7ea7aa0fd3d49d2b33db2063c06a2e2de7bb1d9729abfe83922")
    (hex "f1f96adb76f474725c61de070c05d6462e9cc1b6a50a20c1213ee417cea9d4f1c96ebdf952aaa2cff0832681fcd4cc7041a8ec60acdd5bcc3f9730a4b56c2815")
  = hex "c25d3823a4361eceffd0a05b4cfd336c2f9eb534".
Proof. vm_compute. reflexivity. Qed.

Example hmac_sha1_gen_k100_m200 :
  hmac_sha1 (hex "2d270a7840e020452ed3d0926af1a3879350c94439d0228a6e0734c3f1088e2327d05fda43703e833455744b542c3d7fe243d17dc684312b2b43fc83df8fd4c5a3ca186cb8a3f1f06ebbf7ea7aa0fd3d49d2b33db2063c06a2e2de7bb1d9729abfe83922")
    (hex "02b14519d166d65f4376d2ec597c20294649fd86475ce9ba09ce88cdf8c17d2a21957a1a85920f7506c8ff69543917916eaed2dcb9c44adbaff83b8fa6e21ecd3fda9bba6ca6dd10350287228b1d4cd0e85278de90b9df69956c04660c8078631417acfa8d19c7b7a8673a50b5a02172d0c2a899554d009835a7a5d4a1e900619f549a70711777c7fe2d4a3b8d6998598603feac13452a6cd11a436de4a1c9951f0f31452581bc6f997f4f44d2555ab9ab8cfb4b5a1dffc16d2a67da535e8e1c1b3924373be989b3")
  = hex "1800eabd5ed14a10a83d3815642c1129539420ae".
Proof. vm_compute. reflexivity. Qed.

Example hmac_sha1_gen_k131_m55 :
  hmac_sha1 (hex "330ffde15f5beb947a84768a846ebbd39be0dd89c5960f87bc8c6a55ff10c78b9a87493b541363103c6c6743c6a2008bf19b1ea61f7c2b30a563aad1300c7b03874871fb5577006ff351174758b68375be65657c93b7956ac1c50247709f6a41c280f610320b8e679e0f045e0f6b5b32d6efcccd9a6d4fdf5951c89280702617a9e00b")
    (hex "ec1176715778a8230faf3710f288befa260dad71194432c4d3b8ae85c0a19b8956b7d39941087e42e96c33898a5d09643251a03752e561")
  = hex "36a61adea8198fed8d340aecdbce907b4d3c86e2".
Proof. vm_compute. reflexivity. Qed.

Example hmac_sha1_gen_k131_m128 :
  hmac_sha1 (hex "330ffde15f5beb947a84768a846ebbd39be0dd89c5960f87bc8c6a55ff10c78b9a87493b541363103c6c6743c6a2008bf19b1ea61f7c2b30a563aad1300c7b03874871fb5577006ff351174758b68375be65657c93b7956ac1c50247709f6a41c280f610320b8e679e0f045e0f6b5b32d6efcccd9a6d4fdf5951c89280702617a9e00b")
    (hex "fcc951afb2eb0a10f6c42bf53fff08dd3ebae941bc96fbbcbc49513beab945c2aedd90ba74f0ebe9ffb10c71e1c253865f5785b35fcc50d634d78d41566576905b5c412ccfd1ce92b06d67c5ac08c69873bec69faf078605758ae09a4cb980bc127ef00c56686507053a3eeb70c3588f065ac20f5772796933131783f639c427")
  = hex "44cd432ccfc1c901b8e2f2d8a772108e1bac8368".
Proof. vm_compute. reflexivity. Qed.

(* ================= hmac_sha256 ================= *)

(* published: RFC 4231 section 4 (test case 5 is the full, untruncated tag) *)
Example hmac_sha256_pub_1 :
  hmac_sha256 (hex "0b0b0b0b0b0b0b0b0b0b0b0b0b0b0b0b0b0b0b0b")
    (str "Hi There")
  = hex "b0344c61d8db38535ca8afceaf0bf12b881dc200c9833da726e9376c2e32cff7".
Proof. vm_compute. reflexivity. Qed.

Example hmac_sha256_pub_2 :
  hmac_sha256 (str "Jefe")
    (str "what do ya want for nothing?")
  = hex "5bdcc146bf60754e6a042426089575c75a003f089d2739839dec58b964ec3843".
Proof. vm_compute. reflexivity. Qed.

Example hmac_sha256_pub_3 :
  hmac_sha256 (hex "aaaaaaaaaaaaaaaaaaaaaaaaaaaaaaaaaaaaaaaa")
    (hex "dddddddddddddddddddddddddddddddddddddddddddddddddddddddddddddddddddddddddddddddddddddddddddddddddddd")
  = hex "773ea91e36800e46854db8ebd09181a72959098b3ef8c122d9635514ced565fe".
Proof. vm_compute. reflexivity. Qed.

Example hmac_sha256_pub_4 :
  hmac_sha256 (hex "0102030405060708090a0b0c0d0e0f10111213141516171819")
    (hex "cdcdcdcdcdcdcdcdcdcdcdcdcdcdcdcdcdcdcdcdcdcdcdcdcdcdcdcdcdcdcdcdcdcdcdcdcdcdcdcdcdcdcdcdcdcdcdcdcdcd")
  = hex "82558a389a443c0ea4cc819899f2083a85f0faa3e578f8077a2e3ff46729665b".
Proof. vm_compute. reflexivity. Qed.

Example hmac_sha256_pub_5 :
  hmac_sha256 (hex "0c0c0c0c0c0c0c0c0c0c0c0c0c0c0c0c0c0c0c0c")
    (str "Test With Truncation")
  = hex "a3b6167473100ee06e0c796c2955552bfa6f7c0a6a8aef8b93f860aab0cd20c5".
Proof. vm_compute. reflexivity. Qed.

Example hmac_sha256_pub_6 :
  hmac_sha256 (hex "aaaaaaaaaaaaaaaaaaaaaaaaaaaaaaaaaaaaaaaaaaaaaaaaaaaaaaaaaaaaaaaaaaaaaaaaaaaaaaaaaaaaaaaaaaaaaaaaaaaaaaaaaaaaaaaaaaaaaaaaaaaaaaaaaaaaaaaaaaaaaaaaaaaaaaaaaaaaaaaaaaaaaaaaaaaaaaaaaaaaaaaaaaaaaaaaaaaaaaaaaaaaaaaaaaaaaaaaaaaaaaaaaaaaaaaaaaaaaaaaaaaaaaaaaaaaaaaaaaaaaa")
    (str "Test Using Larger Than Block-Size Key - Hash Key First")
  = hex "60e431591ee0b67f0d8a26aacbf5b77f8e0bc6213728c5140546040f0ee37f54".
Proof. vm_compute. reflexivity. Qed.

Example hmac_sha256_pub_7 :
  hmac_sha256 (hex "aaaaaaaaaaaaaaaaaaaaaaaaaaaaaaaaaaaaaaaaaaaaaaaaaaaaaaaaaaaaaaaaaaaaaaaaaaaaaaaaaaaaaaaaaaaaaaaaaaaaaaaaaaaaaaaaaaaaaaaaaaaaaaaaaaaaaaaaaaaaaaaaaaaaaaaaaaaaaaaaaaaaaaaaaaaaaaaaaaaaaaaaaaaaaaaaaaaaaaaaaaaaaaaaaaaaaaaaaaaaaaaaaaaaaaaaaaaaaaaaaaaaaaaaaaaaaaaaaaaaaa")
    (str "This is a test using a larger than block-size key and a larger than block-size data. The key needs to be hashed before being used by the HMAC algorithm.")
  = hex "9b09ffa71b942fcb27635fbcd5b0e944bfdc63644f0713938a7f51535c3a35e2".
Proof. vm_compute. reflexivity. Qed.

(* generated with Go's crypto/hmac: key lengths below / at / above the block size *)
Example hmac_sha256_gen_k0_m0 :
  hmac_sha256 ([])
    ([])
  = hex "b613679a0814d9ec772f95d778c35fc5ff1697c493715653c6c712144292c5ad".
Proof. vm_compute. reflexivity. Qed.

Example hmac_sha256_gen_k0_m64 :
  hmac_sha256 ([])
    (hex "fcc951afb2eb0a10f6c42bf53fff08dd3ebae941bc96fbbcbc49513beab945c2aedd90ba74f0ebe9ffb10c71e1c253865f5785b35fcc50d634d78d4156657690")
  = hex "2351a61be17c4b05f1bce5831ecd89d6c65fe15b56bbaafcd04e5de98d0970c5".
Proof. vm_compute. reflexivity. Qed.

Example hmac_sha256_gen_k0_m200 :
  hmac_sha256 ([])
    (hex "0d812ced0d5d6dfcdcd91fda8d7752c0576825105ee8c4b5a4daf5f214d0eefa06044edba7d7588f15f6e55838269ea88c5d6b2e6cb33ee4a538982c47db6c4806d64dd6a74ffc0d3e2cc7dc47495940d178db5d531c9131d4304cfe8b0c69af194825d5fc798917edc231193f59b437669274ae51030ef639d1c077f84877d62f3d5681b5e1f3421c0e94f5492723ae6b18b6e4cb1ccc81403ca7d64bc86ed91d2de33708e5f316267e658c34d56139e80ca87846efa414b7a9b891e31a69479b23540b4eb7040f")
  = hex "2de73024e68c484ef18bbfc88a772a8e1720afbf1ccdfdc0a3e9cf5abee995b1".
Proof. vm_compute. reflexivity. Qed.

Example hmac_sha256_gen_k1_m55 :
  hmac_sha256 (hex "1c")
    (hex "f7e15d45946f3fc1a91285fe2682ef92362bd5fc30d00dbf6ec31ba9dcb10c5a3b26a75a634dc65cf89a19796f4b907b5000398a06d556")
  = hex "b56d23ef79fa318646b0a2854b80ab6f7adcaa4466ee0ffdf2db4c1927f57bc2".
Proof. vm_compute. reflexivity. Qed.

Example hmac_sha256_gen_k1_m128 :
  hmac_sha256 (hex "1c")
    (hex "08993883efe2a1ad8f2779e373f939754fd811cbd322d7b75754bf6006c9b692934c647b963533020edff261c6afda9d7d061e0512bb44df2a18e9ddf65fc50b2258f4480a7aec8fba97a77f6933d3085de52a1d716a38cdb44e2832cb46710917af69e7c4c928674b9535b4fa7dea559b2a8e23532887c7373c33264d993b9c")
  = hex "3ebebfe365b97115abe0181125d45746e3a8b290a3c74ca5eeaa4ccb9ffe935f".
Proof. vm_compute. reflexivity. Qed.

Example hmac_sha256_gen_k16_m1 :
  hmac_sha256 (hex "225723a404e989a7946f82a436f771ef")
    (hex "f1")
  = hex "509b4abe61c0090cf8106638904e6a7f417717b94f24d4f419009264541687f0".
Proof. vm_compute. reflexivity. Qed.

Example hmac_sha256_gen_k16_m111 :
  hmac_sha256 (hex "225723a404e989a7946f82a436f771ef")
    (hex "02b14519d166d65f4376d2ec597c20294649fd86475ce9ba09ce88cdf8c17d2a21957a1a85920f7506c8ff69543917916eaed2dcb9c44adbaff83b8fa6e21ecd3fda9bba6ca6dd10350287228b1d4cd0e85278de90b9df69956c04660c8078631417acfa8d19c7b7a8673a50b5a021")
  = hex "54b3d6ebe687b168ef60f09033bc8b70a0d44eb2ff5a5933cc2c90f39d8e494f".
Proof. vm_compute. reflexivity. Qed.

Example hmac_sha256_gen_k63_m0 :
  hmac_sha256 (hex "283f160e226455f6e121299b50748a3b8ac1b5feae0a348c2181fd31e30056bbb518767a32ce1af72d3f8153e1b57974d3ec85546c8d3727b0234d348f122d")
    ([])
  = hex "39b3343266d853a73a2bbcb3e75c9505b28de28af62ee2a4ec90ac344780f18a".
Proof. vm_compute. reflexivity. Qed.

Example hmac_sha256_gen_k63_m64 :
  hmac_sha256 (hex "283f160e226455f6e121299b50748a3b8ac1b5feae0a348c2181fd31e30056bbb518767a32ce1af72d3f8153e1b57974d3ec85546c8d3727b0234d348f122d")
    (hex "fcc951afb2eb0a10f6c42bf53fff08dd3ebae941bc96fbbcbc49513beab945c2aedd90ba74f0ebe9ffb10c71e1c253865f5785b35fcc50d634d78d4156657690")
  = hex "747831469de326b21adca16b41570d13dcead400a9a0511504faacaffa0c185c".
Proof. vm_compute. reflexivity. Qed.

Example hmac_sha256_gen_k63_m200 :
  hmac_sha256 (hex "283f160e226455f6e121299b50748a3b8ac1b5feae0a348c2181fd31e30056bbb518767a32ce1af72d3f8153e1b57974d3ec85546c8d3727b0234d348f122d")
    (hex "0d812ced0d5d6dfcdcd91fda8d7752c0576825105ee8c4b5a4daf5f214d0eefa06044edba7d7588f15f6e55838269ea88c5d6b2e6cb33ee4a538982c47db6c4806d64dd6a74ffc0d3e2cc7dc47495940d178db5d531c9131d4304cfe8b0c69af194825d5fc798917edc231193f59b437669274ae51030ef639d1c077f84877d62f3d5681b5e1f3421c0e94f5492723ae6b18b6e4cb1ccc81403ca7d64bc86ed91d2de33708e5f316267e658c34d56139e80ca87846efa414b7a9b891e31a69479b23540b4eb7040f")
  = hex "127add23dee0660c75034b28a97352b0da7d1cf34f8ed29554b6c9aebb62ce3f".
Proof. vm_compute. reflexivity. Qed.

Example hmac_sha256_gen_k64_m55 :
  hmac_sha256 (hex "2d270a7840e020452ed3d0926af1a3879350c94439d0228a6e0734c3f1088e2327d05fda43703e833455744b542c3d7fe243d17dc684312b2b43fc83df8fd4c5")
    (hex "f7e15d45946f3fc1a91285fe2682ef92362bd5fc30d00dbf6ec31ba9dcb10c5a3b26a75a634dc65cf89a19796f4b907b5000398a06d556")
  = hex "8f73a51bebcbec1ad1aef9829f0c5233960e8f1759ef0fde96dbebabe423fef1".
Proof. vm_compute. reflexivity. Qed.

Example hmac_sha256_gen_k64_m128 :
  hmac_sha256 (hex "2d270a7840e020452ed3d0926af1a3879350c94439d0228a6e0734c3f1088e2327d05fda43703e833455744b542c3d7fe243d17dc684312b2b43fc83df8fd4c5")
    (hex "08993883efe2a1ad8f2779e373f939754fd811cbd322d7b75754bf6006c9b692934c647b963533020edff261c6afda9d7d061e0512bb44df2a18e9ddf65fc50b2258f4480a7aec8fba97a77f6933d3085de52a1d716a38cdb44e2832cb46710917af69e7c4c928674b9535b4fa7dea559b2a8e23532887c7373c33264d993b9c")
  = hex "6fb90791e11a6ec13fcf993d4a8d0d78660c158e51b08372fd0b93d100fdec81".
Proof. vm_compute. reflexivity. Qed.

Example hmac_sha256_gen_k64_m200 :
  hmac_sha256 (hex "2d270a7840e020452ed3d0926af1a3879350c94439d0228a6e0734c3f1088e2327d05fda43703e833455744b542c3d7fe243d17dc684312b2b43fc83df8fd4c5")
    (hex "0d812ced0d5d6dfcdcd91fda8d7752c0576825105ee8c4b5a4daf5f214d0eefa06044edba7d7588f15f6e55838269ea88c5d6b2e6cb33ee4a538982c47db6c4806d64dd6a74ffc0d3e2cc7dc47495940d178db5d531c9131d4304cfe8b0c69af194825d5fc798917edc231193f59b437669274ae51030ef639d1c077f84877d62f3d5681b5e1f3421c0e94f5492723ae6b18b6e4cb1ccc81403ca7d64bc86ed91d2de33708e5f316267e658c34d56139e80ca87846efa414b7a9b891e31a69479b23540b4eb7040f")
  = hex "3bda8f37a87505e3980b7804aae5fdeea0e9b12f79af198812de89e6788658d5".
Proof. vm_compute. reflexivity. Qed.

Example hmac_sha256_gen_k65_m1 :
  hmac_sha256 (hex "330ffde15f5beb947a84768a846ebbd39be0dd89c5960f87bc8c6a55ff10c78b9a87493b541363103c6c6743c6a2008bf19b1ea61f7c2b30a563aad1300c7b0387")
    (hex "f1")
  = hex "c7fd4eb06e7a7a2b83daaf10d9d7fca18a520b649bd28a3529eb7f788431c0d7".
Proof. vm_compute. reflexivity. Qed.

Example hmac_sha256_gen_k65_m111 :
  hmac_sha256 (hex "330ffde15f5beb947a84768a846ebbd39be0dd89c5960f87bc8c6a55ff10c78b9a87493b541363103c6c6743c6a2008bf19b1ea61f7c2b30a563aad1300c7b0387")
    (hex "02b14519d166d65f4376d2ec597c20294649fd86475ce9ba09ce88cdf8c17d2a21957a1a85920f7506c8ff69543917916eaed2dcb9c44adbaff83b8fa6e21ecd3fda9bba6ca6dd10350287228b1d4cd0e85278de90b9df69956c04660c8078631417acfa8d19c7b7a8673a50b5a021")
  = hex "b93cf584b0f60d567f0ae472b4935c8377c8b9b2eb50feb63bda8e13f6c13041".
Proof. vm_compute. reflexivity. Qed.

Example hmac_sha256_gen_k100_m0 :
  hmac_sha256 (hex "38f7f14b7dd7b7e3c7361d819decd41ea36ff1ce505cfd850912a1e70d1800f40d3f339b65b5879d43835a3b3819c49600f26acf797326352083591f808822406ac6ca89f34c0fed78e637a436cb09ad32f917bc7469eecee1a72613306662e7c419b3fd")
    ([])
  = hex "ba5be000dc43f97601c9be3f581e86c2cc750eb359470bb3f8b582b57df9e219".
Proof. vm_compute. reflexivity. Qed.

Example hmac_sha256_gen_k100_m64 :
  hmac_sha256 (hex "38f7f14b7dd7b7e3c7361d819decd41ea36ff1ce505cfd850912a1e70d1800f40d3f339b65b5879d43835a3b3819c49600f26acf797326352083591f808822406ac6ca89f34c0fed78e637a436cb09ad32f917bc7469eecee1a72613306662e7c419b3fd")
    (hex "fcc951afb2eb0a10f6c42bf53fff08dd3ebae941bc96fbbcbc49513beab945c2aedd90ba74f0ebe9ffb10c71e1c253865f5785b35fcc50d634d78d4156657690")
  = hex "4a458ede1581613fc648addc6d8c6e5aa644213ad797f5e8aacdef305e4b1c71".
Proof. vm_compute. reflexivity. Qed.

Example hmac_sha256_gen_k100_m200 :
  hmac_sha256 (hex "38f7f14b7dd7b7e3c7361d819decd41ea36ff1ce505cfd850912a1e70d1800f40d3f339b65b5879d43835a3b3819c49600f26acf797326352083591f808822406ac6ca89f34c0fed78e637a436cb09ad32f917bc7469eecee1a72613306662e7c419b3fd")
    (hex "0d812ced0d5d6dfcdcd91fda8d7752c0576825105ee8c4b5a4daf5f214d0eefa06044edba7d7588f15f6e55838269ea88c5d6b2e6cb33ee4a538982c47db6c4806d64dd6a74ffc0d3e2cc7dc47495940d178db5d531c9131d4304cfe8b0c69af194825d5fc798917edc231193f59b437669274ae51030ef639d1c077f84877d62f3d5681b5e1f3421c0e94f5492723ae6b18b6e4cb1ccc81403ca7d64bc86ed91d2de33708e5f316267e658c34d56139e80ca87846efa414b7a9b891e31a69479b23540b4eb7040f")
  = hex "a0a43e102278711d793cc8d16f3825068d13ba6afd4f0af5c39e5cf8720a78f9".
Proof. vm_compute. reflexivity. Qed.

Example hmac_sha256_gen_k131_m55 :
  hmac_sha256 (hex "3edfe4b59b52823114e7c478b769ed6aabfe0513dc22eb825698d8791b20385c80f61dfb7658ab2a4b9a4d32ab9087a10f4ab7f8d26b203a9ba3076ed005ca7e4e44241790201f6cfd7b570115e18fe6a78cc8fb561b473201894adff02c5b8dc6b16feba16c50c7e46afb279925eef86bbf98e297235d3d5d7be334d7d09e8b39c9c8")
    (hex "f7e15d45946f3fc1a91285fe2682ef92362bd5fc30d00dbf6ec31ba9dcb10c5a3b26a75a634dc65cf89a19796f4b907b5000398a06d556")
  = hex "675ef24e1fc4ea20b75bab63bf0910188952ef61b807ca98d041caf48e19152b".
Proof. vm_compute. reflexivity. Qed.

Example hmac_sha256_gen_k131_m128 :
  hmac_sha256 (hex "3edfe4b59b52823114e7c478b769ed6aabfe0513dc22eb825698d8791b20385c80f61dfb7658ab2a4b9a4d32ab9087a10f4ab7f8d26b203a9ba3076ed005ca7e4e44241790201f6cfd7b570115e18fe6a78cc8fb561b473201894adff02c5b8dc6b16feba16c50c7e46afb279925eef86bbf98e297235d3d5d7be334d7d09e8b39c9c8")
    (hex "08993883efe2a1ad8f2779e373f939754fd811cbd322d7b75754bf6006c9b692934c647b963533020edff261c6afda9d7d061e0512bb44df2a18e9ddf65fc50b2258f4480a7aec8fba97a77f6933d3085de52a1d716a38cdb44e2832cb46710917af69e7c4c928674b9535b4fa7dea559b2a8e23532887c7373c33264d993b9c")
  = hex "3d1a623f7c16d539f19737a89274bba171dc3915cc38b41f265e556a10e22ae9".
Proof. vm_compute. reflexivity. Qed.

(* ================= hmac_sha384 ================= *)

(* published: RFC 4231 section 4 (test case 5 is the full, untruncated tag) *)
Example hmac_sha384_pub_1 :
  hmac_sha384 (hex "0b0b0b0b0b0b0b0b0b0b0b0b0b0b0b0b0b0b0b0b")
    (str "Hi There")
  = hex "afd03944d84895626b0825f4ab46907f15f9dadbe4101ec682aa034c7cebc59cfaea9ea9076ede7f4af152e8b2fa9cb6".
Proof. vm_compute. reflexivity. Qed.

Example hmac_sha384_pub_2 :
  hmac_sha384 (str "Jefe")
    (str "what do ya want for nothing?")
  = hex "af45d2e376484031617f78d2b58a6b1b9c7ef464f5a01b47e42ec3736322445e8e2240ca5e69e2c78b3239ecfab21649".
Proof. vm_compute. reflexivity. Qed.

Example hmac_sha384_pub_3 :
  hmac_sha384 (hex "aaaaaaaaaaaaaaaaaaaaaaaaaaaaaaaaaaaaaaaa")
    (hex "dddddddddddddddddddddddddddddddddddddddddddddddddddddddddddddddddddddddddddddddddddddddddddddddddddd")
  = hex "88062608d3e6ad8a0aa2ace014c8a86f0aa635d947ac9febe83ef4e55966144b2a5ab39dc13814b94e3ab6e101a34f27".
Proof. vm_compute. reflexivity. Qed.

Example hmac_sha384_pub_4 :
  hmac_sha384 (hex "0102030405060708090a0b0c0d0e0f10111213141516171819")
    (hex "cdcdcdcdcdcdcdcdcdcdcdcdcdcdcdcdcdcdcdcdcdcdcdcdcdcdcdcdcdcdcdcdcdcdcdcdcdcdcdcdcdcdcdcdcdcdcdcdcdcd")
  = hex "3e8a69b7783c25851933ab6290af6ca77a9981480850009cc5577c6e1f573b4e6801dd23c4a7d679ccf8a386c674cffb".
Proof. vm_compute. reflexivity. Qed.

Example hmac_sha384_pub_5 :
  hmac_sha384 (hex "0c0c0c0c0c0c0c0c0c0c0c0c0c0c0c0c0c0c0c0c")
    (str "Test With Truncation")
  = hex "3abf34c3503b2a23a46efc619baef897f4c8e42c934ce55ccbae9740fcbc1af4ca62269e2a37cd88ba926341efe4aeea".
Proof. vm_compute. reflexivity. Qed.

Example hmac_sha384_pub_6 :
  hmac_sha384 (hex "aaaaaaaaaaaaaaaaaaaaaaaaaaaaaaaaaaaaaaaaaaaaaaaaaaaaaaaaaaaaaaaaaaaaaaaaaaaaaaaaaaaaaaaaaaaaaaaaaaaaaaaaaaaaaaaaaaaaaaaaaaaaaaaaaaaaaaaaaaaaaaaaaaaaaaaaaaaaaaaaaaaaaaaaaaaaaaaaaaaaaaaaaaaaaaaaaaaaaaaaaaaaaaaaaaaaaaaaaaaaaaaaaaaaaaaaaaaaaaaaaaaaaaaaaaaaaaaaaaaaaa")
    (str "Test Using Larger Than Block-Size Key - Hash Key First")
  = hex "4ece084485813e9088d2c63a041bc5b44f9ef1012a2b588f3cd11f05033ac4c60c2ef6ab4030fe8296248df163f44952".
Proof. vm_compute. reflexivity. Qed.

Example hmac_sha384_pub_7 :
  hmac_sha384 (hex "aaaaaaaaaaaaaaaaaaaaaaaaaaaaaaaaaaaaaaaaaaaaaaaaaaaaaaaaaaaaaaaaaaaaaaaaaaaaaaaaaaaaaaaaaaaaaaaaaaaaaaaaaaaaaaaaaaaaaaaaaaaaaaaaaaaaaaaaaaaaaaaaaaaaaaaaaaaaaaaaaaaaaaaaaaaaaaaaaaaaaaaaaaaaaaaaaaaaaaaaaaaaaaaaaaaaaaaaaaaaaaaaaaaaaaaaaaaaaaaaaaaaaaaaaaaaaaaaaaaaaa")
    (str "This is a test using a larger than block-size key and a larger than block-size data. The key needs to be hashed before being used by the HMAC algorithm.")
  = hex "6617178e941f020d351e2f254e8fd32c602420feb0b8fb9adccebb82461e99c5a678cc31e799176d3860e6110c46523e".
Proof. vm_compute. reflexivity. Qed.

(* generated with Go's crypto/hmac: key lengths below / at / above the block size *)
Example hmac_sha384_gen_k0_m0 :
  hmac_sha384 ([])
    ([])
  = hex "6c1f2ee938fad2e24bd91298474382ca218c75db3d83e114b3d4367776d14d3551289e75e8209cd4b792302840234adc".
Proof. vm_compute. reflexivity. Qed.

Example hmac_sha384_gen_k0_m64 :
  hmac_sha384 ([])
    (hex "fcc951afb2eb0a10f6c42bf53fff08dd3ebae941bc96fbbcbc49513beab945c2aedd90ba74f0ebe9ffb10c71e1c253865f5785b35fcc50d634d78d4156657690")
  = hex "176ba523e60409a12acdae0ef825c18ac46d5fd892c61ffe3fd8c32c2f3ec782ac3599fd5b84e3d77fff369ddfbceab6".
Proof. vm_compute. reflexivity. Qed.

Example hmac_sha384_gen_k0_m200 :
  hmac_sha384 ([])
    (hex "0d812ced0d5d6dfcdcd91fda8d7752c0576825105ee8c4b5a4daf5f214d0eefa06044edba7d7588f15f6e55838269ea88c5d6b2e6cb33ee4a538982c47db6c4806d64dd6a74ffc0d3e2cc7dc47495940d178db5d531c9131d4304cfe8b0c69af194825d5fc798917edc231193f59b437669274ae51030ef639d1c077f84877d62f3d5681b5e1f3421c0e94f5492723ae6b18b6e4cb1ccc81403ca7d64bc86ed91d2de33708e5f316267e658c34d56139e80ca87846efa414b7a9b891e31a69479b23540b4eb7040f")
  = hex "27a93fe6a4f82d1d35a0a5d781b7c72bdf22c3b41f6f7d3745707152ce5ef6d21d3e97f52cfc9c4a119c2861cc5e77c0".
Proof. vm_compute. reflexivity. Qed.

Example hmac_sha384_gen_k1_m55 :
  hmac_sha384 (hex "1c")
    (hex "f7e15d45946f3fc1a91285fe2682ef92362bd5fc30d00dbf6ec31ba9dcb10c5a3b26a75a634dc65cf89a19796f4b907b5000398a06d556")
  = hex "5922e02cef0d618576bbf1326b8a9837a13798c8ee034d9509a17b55dfcda52f6b954bedaa92170ebca95a1fd47d0c16".
Proof. vm_compute. reflexivity. Qed.

Example hmac_sha384_gen_k1_m128 :
  hmac_sha384 (hex "1c")
    (hex "08993883efe2a1ad8f2779e373f939754fd811cbd322d7b75754bf6006c9b692934c647b963533020edff261c6afda9d7d061e0512bb44df2a18e9ddf65fc50b2258f4480a7aec8fba97a77f6933d3085de52a1d716a38cdb44e2832cb46710917af69e7c4c928674b9535b4fa7dea559b2a8e23532887c7373c33264d993b9c")
  = hex "98867af9c8fe8f282c44b7d382380ac4c4531c633bf27970d13f86ce6d5f19c25cab56f7cff65cfb6d896e19331437b5".
Proof. vm_compute. reflexivity. Qed.

Example hmac_sha384_gen_k16_m1 :
  hmac_sha384 (hex "225723a404e989a7946f82a436f771ef")
    (hex "f1")
  = hex "7477f2452c03d3d4fbb4e8ec48d6bda74f5ba1e1f68ee37a04a07593e5a0b895354ee920e2506111b560678822776880".
Proof. vm_compute. reflexivity. Qed.

Example hmac_sha384_gen_k16_m111 :
  hmac_sha384 (hex "225723a404e989a7946f82a436f771ef")
    (hex "02b14519d166d65f4376d2ec597c20294649fd86475ce9ba09ce88cdf8c17d2a21957a1a85920f7506c8ff69543917916eaed2dcb9c44adbaff83b8fa6e21ecd3fda9bba6ca6dd10350287228b1d4cd0e85278de90b9df69956c04660c8078631417acfa8d19c7b7a8673a50b5a021")
  = hex "d062a73dad036fb6fab78368d76fcb7b1fd9fcee8c56bb571c3ac8fe0f23e3bcffad96660d759f3f01b4da9516183040".
Proof. vm_compute. reflexivity. Qed.

Example hmac_sha384_gen_k127_m0 :
  hmac_sha384 (hex "283f160e226455f6e121299b50748a3b8ac1b5feae0a348c2181fd31e30056bbb518767a32ce1af72d3f8153e1b57974d3ec85546c8d3727b0234d348f122d88bf4cbfde1bcee172e926d78d9c8a7705d53f02fdd154e3a28200baaff1137af4bd4f7d35c4aacc0659b50c9585b2c86d411f01b89eb741805428adef2911af")
    ([])
  = hex "9e2ad8a4f5cfa8b0f413a9be83b3e0e26715bbb704848931a8edef49b5adb3b793076673cbe4e690cd11e581048b149f".
Proof. vm_compute. reflexivity. Qed.

Example hmac_sha384_gen_k127_m64 :
  hmac_sha384 (hex "283f160e226455f6e121299b50748a3b8ac1b5feae0a348c2181fd31e30056bbb518767a32ce1af72d3f8153e1b57974d3ec85546c8d3727b0234d348f122d88bf4cbfde1bcee172e926d78d9c8a7705d53f02fdd154e3a28200baaff1137af4bd4f7d35c4aacc0659b50c9585b2c86d411f01b89eb741805428adef2911af")
    (hex "fcc951afb2eb0a10f6c42bf53fff08dd3ebae941bc96fbbcbc49513beab945c2aedd90ba74f0ebe9ffb10c71e1c253865f5785b35fcc50d634d78d4156657690")
  = hex "212aef957e257640cdb6ae6c85e2dcc25fb741346cef981ceb152d6a658784cc958dade17b81fedaa45acca479a8dc8b".
Proof. vm_compute. reflexivity. Qed.

Example hmac_sha384_gen_k127_m200 :
  hmac_sha384 (hex "283f160e226455f6e121299b50748a3b8ac1b5feae0a348c2181fd31e30056bbb518767a32ce1af72d3f8153e1b57974d3ec85546c8d3727b0234d348f122d88bf4cbfde1bcee172e926d78d9c8a7705d53f02fdd154e3a28200baaff1137af4bd4f7d35c4aacc0659b50c9585b2c86d411f01b89eb741805428adef2911af")
    (hex "0d812ced0d5d6dfcdcd91fda8d7752c0576825105ee8c4b5a4daf5f214d0eefa06044edba7d7588f15f6e55838269ea88c5d6b2e6cb33ee4a538982c47db6c4806d64dd6a74ffc0d3e2cc7dc47495940d178db5d531c9131d4304cfe8b0c69af194825d5fc798917edc231193f59b437669274ae51030ef639d1c077f84877d62f3d5681b5e1f3421c0e94f5492723ae6b18b6e4cb1ccc81403ca7d64bc86ed91d2de33708e5f316267e658c34d56139e80ca87846efa414b7a9b891e31a69479b23540b4eb7040f")
  = hex "0a161ef51d0ccd0dc9642f97ca3094def82f5f46f3b5542465db84969c2083acea2f56f1d8710abe0cd774b84a91186d".
Proof. vm_compute. reflexivity. Qed.

Example hmac_sha384_gen_k128_m55 :
  hmac_sha384 (hex "2d270a7840e020452ed3d0926af1a3879350c94439d0228a6e0734c3f1088e2327d05fda43703e833455744b542c3d7fe243d17dc684312b2b43fc83df8fd4c5a3ca186cb8a3f1f06ebbf7ea7aa0fd3d49d2b33db2063c06a2e2de7bb1d9729abfe83922fb5b2db6fbe208f9ca8e92500b87e6439c92c8b056bd3a40d5c1ebdc")
    (hex "f7e15d45946f3fc1a91285fe2682ef92362bd5fc30d00dbf6ec31ba9dcb10c5a3b26a75a634dc65cf89a19796f4b907b5000398a06d556")
  = hex "f306a4655e49f352444d7b27c002f9ddfee2d8ac91dda7933adb73abceb84ed9db2027fa7d3a9c5d28743b5ae5130952".
Proof. vm_compute. reflexivity. Qed.

Example hmac_sha384_gen_k128_m128 :
  hmac_sha384 (hex "2d270a7840e020452ed3d0926af1a3879350c94439d0228a6e0734c3f1088e2327d05fda43703e833455744b542c3d7fe243d17dc684312b2b43fc83df8fd4c5a3ca186cb8a3f1f06ebbf7ea7aa0fd3d49d2b33db2063c06a2e2de7bb1d9729abfe83922fb5b2db6fbe208f9ca8e92500b87e6439c92c8b056bd3a40d5c1ebdc")
    (hex "08993883efe2a1ad8f2779e373f939754fd811cbd322d7b75754bf6006c9b692934c647b963533020edff261c6afda9d7d061e0512bb44df2a18e9ddf65fc50b2258f4480a7aec8fba97a77f6933d3085de52a1d716a38cdb44e2832cb46710917af69e7c4c928674b9535b4fa7dea559b2a8e23532887c7373c33264d993b9c")
  = hex "bf683a8048ad55de80a12793f68203334e6751ed6e135e96846f67b807552a51ad18f64ce87adb5d5bafec0a39952d4a".
Proof. vm_compute. reflexivity. Qed.

Example hmac_sha384_gen_k128_m200 :
  hmac_sha384 (hex "2d270a7840e020452ed3d0926af1a3879350c94439d0228a6e0734c3f1088e2327d05fda43703e833455744b542c3d7fe243d17dc684312b2b43fc83df8fd4c5a3ca186cb8a3f1f06ebbf7ea7aa0fd3d49d2b33db2063c06a2e2de7bb1d9729abfe83922fb5b2db6fbe208f9ca8e92500b87e6439c92c8b056bd3a40d5c1ebdc")
    (hex "0d812ced0d5d6dfcdcd91fda8d7752c0576825105ee8c4b5a4daf5f214d0eefa06044edba7d7588f15f6e55838269ea88c5d6b2e6cb33ee4a538982c47db6c4806d64dd6a74ffc0d3e2cc7dc47495940d178db5d531c9131d4304cfe8b0c69af194825d5fc798917edc231193f59b437669274ae51030ef639d1c077f84877d62f3d5681b5e1f3421c0e94f5492723ae6b18b6e4cb1ccc81403ca7d64bc86ed91d2de33708e5f316267e658c34d56139e80ca87846efa414b7a9b891e31a69479b23540b4eb7040f")
  = hex "ab6cf84c1c2f06d34eccc132117c137bb54b29852a8bd351ec4c2d38e9bfa9d8809da3e66878a866eeb2c7c001a66ff0".
Proof. vm_compute. reflexivity. Qed.

Example hmac_sha384_gen_k129_m1 :
  hmac_sha384 (hex "330ffde15f5beb947a84768a846ebbd39be0dd89c5960f87bc8c6a55ff10c78b9a87493b541363103c6c6743c6a2008bf19b1ea61f7c2b30a563aad1300c7b03874871fb5577006ff351174758b68375be65657c93b7956ac1c50247709f6a41c280f610320b8e679e0f045e0f6b5b32d6efcccd9a6d4fdf5951c89280702617a9")
    (hex "f1")
  = hex "828190778daf472daf2f4e36473c8dfa5eb1e379489426558a1560b9ba68572883f5ad4149e8871533e39ea0ecb3b843".
Proof. vm_compute. reflexivity. Qed.

Example hmac_sha384_gen_k129_m111 :
  hmac_sha384 (hex "330ffde15f5beb947a84768a846ebbd39be0dd89c5960f87bc8c6a55ff10c78b9a87493b541363103c6c6743c6a2008bf19b1ea61f7c2b30a563aad1300c7b03874871fb5577006ff351174758b68375be65657c93b7956ac1c50247709f6a41c280f610320b8e679e0f045e0f6b5b32d6efcccd9a6d4fdf5951c89280702617a9")
    (hex "02b14519d166d65f4376d2ec597c20294649fd86475ce9ba09ce88cdf8c17d2a21957a1a85920f7506c8ff69543917916eaed2dcb9c44adbaff83b8fa6e21ecd3fda9bba6ca6dd10350287228b1d4cd0e85278de90b9df69956c04660c8078631417acfa8d19c7b7a8673a50b5a021")
  = hex "8090b223e94432e85c66be630a4ea2e7e4754f9925b8a5aa38de447814d93cc31e289ef8ccc911c7dc07ab872bb3cbec".
Proof. vm_compute. reflexivity. Qed.

Example hmac_sha384_gen_k164_m0 :
  hmac_sha384 (hex "38f7f14b7dd7b7e3c7361d819decd41ea36ff1ce505cfd850912a1e70d1800f40d3f339b65b5879d43835a3b3819c49600f26acf797326352083591f808822406ac6ca89f34c0fed78e637a436cb09ad32f917bc7469eecee1a72613306662e7c419b3fd6abbef17413dffc354482415a157b2579948d60e5be656e32c206251f1d5e916b17909d15ffc835072a95a7114f5fd99df6fa4257f3fba62a6fb87dd2dad7223")
    ([])
  = hex "43fbf18ec2504580c285bd6886f56fea0cee8c2a12583d1b292ddbb4eba33999fdd7e1e3a6e0e06779e12cb8959bed3c".
Proof. vm_compute. reflexivity. Qed.

Example hmac_sha384_gen_k164_m64 :
  hmac_sha384 (hex "38f7f14b7dd7b7e3c7361d819decd41ea36ff1ce505cfd850912a1e70d1800f40d3f339b65b5879d43835a3b3819c49600f26acf797326352083591f808822406ac6ca89f34c0fed78e637a436cb09ad32f917bc7469eecee1a72613306662e7c419b3fd6abbef17413dffc354482415a157b2579948d60e5be656e32c206251f1d5e916b17909d15ffc835072a95a7114f5fd99df6fa4257f3fba62a6fb87dd2dad7223")
    (hex "fcc951afb2eb0a10f6c42bf53fff08dd3ebae941bc96fbbcbc49513beab945c2aedd90ba74f0ebe9ffb10c71e1c253865f5785b35fcc50d634d78d4156657690")
  = hex "80e762aca3a91b52b778eaca818a49f4afb772d2b8a6be37346488cca0ef11b43e3b75683f83653eb5248cc600d2b64e".
Proof. vm_compute. reflexivity. Qed.

Example hmac_sha384_gen_k164_m200 :
  hmac_sha384 (hex "38f7f14b7dd7b7e3c7361d819decd41ea36ff1ce505cfd850912a1e70d1800f40d3f339b65b5879d43835a3b3819c49600f26acf797326352083591f808822406ac6ca89f34c0fed78e637a436cb09ad32f917bc7469eecee1a72613306662e7c419b3fd6abbef17413dffc354482415a157b2579948d60e5be656e32c206251f1d5e916b17909d15ffc835072a95a7114f5fd99df6fa4257f3fba62a6fb87dd2dad7223")
    (hex "0d812ced0d5d6dfcdcd91fda8d7752c0576825105ee8c4b5a4daf5f214d0eefa06044edba7d7588f15f6e55838269ea88c5d6b2e6cb33ee4a538982c47db6c4806d64dd6a74ffc0d3e2cc7dc47495940d178db5d531c9131d4304cfe8b0c69af194825d5fc798917edc231193f59b437669274ae51030ef639d1c077f84877d62f3d5681b5e1f3421c0e94f5492723ae6b18b6e4cb1ccc81403ca7d64bc86ed91d2de33708e5f316267e658c34d56139e80ca87846efa414b7a9b891e31a69479b23540b4eb7040f")
  = hex "bc7f1d9db62281492e7699e8857f7212ea62858f289fe98b9eb184b1d4eacee903709ca7995f6895fbce160ec7d082d2".
Proof. vm_compute. reflexivity. Qed.

Example hmac_sha384_gen_k259_m55 :
  hmac_sha384 (hex "3edfe4b59b52823114e7c478b769ed6aabfe0513dc22eb825698d8791b20385c80f61dfb7658ab2a4b9a4d32ab9087a10f4ab7f8d26b203a9ba3076ed005ca7e4e44241790201f6cfd7b570115e18fe6a78cc8fb561b473201894adff02c5b8dc6b16feba16c50c7e46afb279925eef86bbf98e297235d3d5d7be334d7d09e8b39c9c89fd4de488f6e6c28aed0889f9c8680d9b53b5af5af36d0ec97d98f597f2cbc4b9dc800a19bbdaba060479db49b571193c25c7a3364c90351f53d6e6974575d6a94913e8b46a772f9ce7d5851c1705820998722d2b705b3d1003cd4ba78a824ea79b6e8ca71b6339d4ce813afdf99de3010bdd3208b8ea3012f048c509d3f2ce3")
    (hex "f7e15d45946f3fc1a91285fe2682ef92362bd5fc30d00dbf6ec31ba9dcb10c5a3b26a75a634dc65cf89a19796f4b907b5000398a06d556")
  = hex "6115287e53cdebd2ef5fb516323163c0227f7a2f94281b0f306122301a64f6c268162ce1caa7ac76e983cdc857d2f116".
Proof. vm_compute. reflexivity. Qed.

Example hmac_sha384_gen_k259_m128 :
  hmac_sha384 (hex "3edfe4b59b52823114e7c478b769ed6aabfe0513dc22eb825698d8791b20385c80f61dfb7658ab2a4b9a4d32ab9087a10f4ab7f8d26b203a9ba3076ed005ca7e4e44241790201f6cfd7b570115e18fe6a78cc8fb561b473201894adff02c5b8dc6b16feba16c50c7e46afb279925eef86bbf98e297235d3d5d7be334d7d09e8b39c9c89fd4de488f6e6c28aed0889f9c8680d9b53b5af5af36d0ec97d98f597f2cbc4b9dc800a19bbdaba060479db49b571193c25c7a3364c90351f53d6e6974575d6a94913e8b46a772f9ce7d5851c1705820998722d2b705b3d1003cd4ba78a824ea79b6e8ca71b6339d4ce813afdf99de3010bdd3208b8ea3012f048c509d3f2ce3")
    (hex "08993883efe2a1ad8f2779e373f939754fd811cbd322d7b75754bf6006c9b692934c647b963533020edff261c6afda9d7d061e0512bb44df2a18e9ddf65fc50b2258f4480a7aec8fba97a77f6933d3085de52a1d716a38cdb44e2832cb46710917af69e7c4c928674b9535b4fa7dea559b2a8e23532887c7373c33264d993b9c")
  = hex "25920a8401052e4d7282eabc351d05bb32cc1bedce3e73383b0befff93bbbf5bdf86e1182d1229e6d5c601432afec8bc".
Proof. vm_compute. reflexivity. Qed.

(* ================= hmac_sha512 ================= *)

(* published: RFC 4231 section 4 (test case 5 is the full, untruncated tag) *)
Example hmac_sha512_pub_1 :
  hmac_sha512 (hex "0b0b0b0b0b0b0b0b0b0b0b0b0b0b0b0b0b0b0b0b")
    (str "Hi There")
  = hex "87aa7cdea5ef619d4ff0b4241a1d6cb02379f4e2ce4ec2787ad0b30545e17cdedaa833b7d6b8a702038b274eaea3f4e4be9d914eeb61f1702e696c203a126854".
Proof. vm_compute. reflexivity. Qed.

Example hmac_sha512_pub_2 :
  hmac_sha512 (str "Jefe")
    (str "what do ya want for nothing?")
  = hex "164b7a7bfcf819e2e395fbe73b56e0a387bd64222e831fd610270cd7ea2505549758bf75c05a994a6d034f65f8f0e6fdcaeab1a34d4a6b4b636e070a38bce737".
Proof. vm_compute. reflexivity. Qed.

Example hmac_sha512_pub_3 :
  hmac_sha512 (hex "aaaaaaaaaaaaaaaaaaaaaaaaaaaaaaaaaaaaaaaa")
    (hex "dddddddddddddddddddddddddddddddddddddddddddddddddddddddddddddddddddddddddddddddddddddddddddddddddddd")
  = hex "fa73b0089d56a284efb0f0756c890be9b1b5dbdd8ee81a3655f83e33b2279d39bf3e848279a722c806b485a47e67c807b946a337bee8942674278859e13292fb".
Proof. vm_compute. reflexivity. Qed.

Example hmac_sha512_pub_4 :
  hmac_sha512 (hex "0102030405060708090a0b0c0d0e0f10111213141516171819")
    (hex "cdcdcdcdcdcdcdcdcdcdcdcdcdcdcdcdcdcdcdcdcdcdcdcdcdcdcdcdcdcdcdcdcdcdcdcdcdcdcdcdcdcdcdcdcdcdcdcdcdcd")
  = hex "b0ba465637458c6990e5a8c5f61d4af7e576d97ff94b872de76f8050361ee3dba91ca5c11aa25eb4d679275cc5788063a5f19741120c4f2de2adebeb10a298dd".
Proof. vm_compute. reflexivity. Qed.

Example hmac_sha512_pub_5 :
  hmac_sha512 (hex "0c0c0c0c0c0c0c0c0c0c0c0c0c0c0c0c0c0c0c0c")
    (str "Test With Truncation")
  = hex "415fad6271580a531d4179bc891d87a650188707922a4fbb36663a1eb16da008711c5b50ddd0fc235084eb9d3364a1454fb2ef67cd1d29fe6773068ea266e96b".
Proof. vm_compute. reflexivity. Qed.

Example hmac_sha512_pub_6 :
  hmac_sha512 (hex "aaaaaaaaaaaaaaaaaaaaaaaaaaaaaaaaaaaaaaaaaaaaaaaaaaaaaaaaaaaaaaaaaaaaaaaaaaaaaaaaaaaaaaaaaaaaaaaaaaaaaaaaaaaaaaaaaaaaaaaaaaaaaaaaaaaaaaaaaaaaaaaaaaaaaaaaaaaaaaaaaaaaaaaaaaaaaaaaaaaaaaaaaaaaaaaaaaaaaaaaaaaaaaaaaaaaaaaaaaaaaaaaaaaaaaaaaaaaaaaaaaaaaaaaaaaaaaaaaaaaaa")
    (str "Test Using Larger Than Block-Size Key - Hash Key First")
  = hex "80b24263c7c1a3ebb71493c1dd7be8b49b46d1f41b4aeec1121b013783f8f3526b56d037e05f2598bd0fd2215d6a1e5295e64f73f63f0aec8b915a985d786598".
Proof. vm_compute. reflexivity. Qed.

Example hmac_sha512_pub_7 :
  hmac_sha512 (hex "aaaaaaaaaaaaaaaaaaaaaaaaaaaaaaaaaaaaaaaaaaaaaaaaaaaaaaaaaaaaaaaaaaaaaaaaaaaaaaaaaaaaaaaaaaaaaaaaaaaaaaaaaaaaaaaaaaaaaaaaaaaaaaaaaaaaaaaaaaaaaaaaaaaaaaaaaaaaaaaaaaaaaaaaaaaaaaaaaaaaaaaaaaaaaaaaaaaaaaaaaaaaaaaaaaaaaaaaaaaaaaaaaaaaaaaaaaaaaaaaaaaaaaaaaaaaaaaaaaaaaa")
    (str "This is a test using a larger than block-size key and a larger than block-size data. The key needs to be hashed before being used by the HMAC algorithm.")
  = hex "e37b6a775dc87dbaa4dfa9f96e5e3ffddebd71f8867289865df5a32d20cdc944b6022cac3c4982b10d5eeb55c3e4de15134676fb6de0446065c97440fa8c6a58".
Proof. vm_compute. reflexivity. Qed.

(* generated with Go's crypto/hmac: key lengths below / at / above the block size *)
Example hmac_sha512_gen_k0_m0 :
  hmac_sha512 ([])
    ([])
  = hex "b936cee86c9f87aa5d3c6f2e84cb5a4239a5fe50480a6ec66b70ab5b1f4ac6730c6c515421b327ec1d69402e53dfb49ad7381eb067b338fd7b0cb22247225d47".
Proof. vm_compute. reflexivity. Qed.

Example hmac_sha512_gen_k0_m64 :
  hmac_sha512 ([])
    (hex "fcc951afb2eb0a10f6c42bf53fff08dd3ebae941bc96fbbcbc49513beab945c2aedd90ba74f0ebe9ffb10c71e1c253865f5785b35fcc50d634d78d4156657690")
  = hex "a16a3393d5173e2176e360d32385645038c3cb67605acda1dd5bce3d3abd4fd14fdc0bc14c60b1611f7d983ff39efbdd0d21c329ad1b3063af9e97d31a5c58bc".
Proof. vm_compute. reflexivity. Qed.

Example hmac_sha512_gen_k0_m200 :
  hmac_sha512 ([])
    (hex "0d812ced0d5d6dfcdcd91fda8d7752c0576825105ee8c4b5a4daf5f214d0eefa06044edba7d7588f15f6e55838269ea88c5d6b2e6cb33ee4a538982c47db6c4806d64dd6a74ffc0d3e2cc7dc47495940d178db5d531c9131d4304cfe8b0c69af194825d5fc798917edc231193f59b437669274ae51030ef639d1c077f84877d62f3d5681b5e1f3421c0e94f5492723ae6b18b6e4cb1ccc81403ca7d64bc86ed91d2de33708e5f316267e658c34d56139e80ca87846efa414b7a9b891e31a69479b23540b4eb7040f")
  = hex "5ad8e1991a1543c75b75b1211d72f948ee661a88119d1f657a8fd54c70c5e227b3adf84068e31fc9d9ac3c05d118df329d09d1da9aa902a3c3d0d4f822f19364".
Proof. vm_compute. reflexivity. Qed.

Example hmac_sha512_gen_k1_m55 :
  hmac_sha512 (hex "1c")
    (hex "f7e15d45946f3fc1a91285fe2682ef92362bd5fc30d00dbf6ec31ba9dcb10c5a3b26a75a634dc65cf89a19796f4b907b5000398a06d556")
  = hex "bf077b5902734f5daba30b903c2449c410c06af5bee17358578a832382370bedc3e1af4fc360c4252c4068200391a503a7f8193213c35c27c15c6eea0389ecf5".
Proof. vm_compute. reflexivity. Qed.

Example hmac_sha512_gen_k1_m128 :
  hmac_sha512 (hex "1c")
    (hex "08993883efe2a1ad8f2779e373f939754fd811cbd322d7b75754bf6006c9b692934c647b963533020edff261c6afda9d7d061e0512bb44df2a18e9ddf65fc50b2258f4480a7aec8fba97a77f6933d3085de52a1d716a38cdb44e2832cb46710917af69e7c4c928674b9535b4fa7dea559b2a8e23532887c7373c33264d993b9c")
  = hex "c9bd92f25f63c6575d8bb53bd0bc283e849cc04dc2c8e6084a275fda4edcee12a55f3ce5ccc6134e0d0c17a596d7977c3ded4ca16e75f99901b353c0e0498f22".
Proof. vm_compute. reflexivity. Qed.

Example hmac_sha512_gen_k16_m1 :
  hmac_sha512 (hex "225723a404e989a7946f82a436f771ef")
    (hex "f1")
  = hex "fa340708795a6671d60c98fcf545d308e4b4d4ce014c5f4488ffffc9e5908ae022ca53fb6227c81c84dc7a21f19fad710c50d906f2cce959f340a8ed8495cf1f".
Proof. vm_compute. reflexivity. Qed.

Example hmac_sha512_gen_k16_m111 :
  hmac_sha512 (hex "225723a404e989a7946f82a436f771ef")
    (hex "02b14519d166d65f4376d2ec597c20294649fd86475ce9ba09ce88cdf8c17d2a21957a1a85920f7506c8ff69543917916eaed2dcb9c44adbaff83b8fa6e21ecd3fda9bba6ca6dd10350287228b1d4cd0e85278de90b9df69956c04660c8078631417acfa8d19c7b7a8673a50b5a021")
  = hex "3a433819bea2e650f099b340a5a95013bc9c988d3e407818d49a94ab15fdf11a94e484fbb3dce9cb24e0ade3186f15463734b4ef53b9020fee73d95850b90e81".
Proof. vm_compute. reflexivity. Qed.

Example hmac_sha512_gen_k127_m0 :
  hmac_sha512 (hex "283f160e226455f6e121299b50748a3b8ac1b5feae0a348c2181fd31e30056bbb518767a32ce1af72d3f8153e1b57974d3ec85546c8d3727b0234d348f122d88bf4cbfde1bcee172e926d78d9c8a7705d53f02fdd154e3a28200baaff1137af4bd4f7d35c4aacc0659b50c9585b2c86d411f01b89eb741805428adef2911af")
    ([])
  = hex "b25cd67d81d951d8f591cd9dba9996d1561ff3a4f1a49e068af98fe3f180f456e1e074b9a400566ff9ff1eb5acc7b85108b8eb2aa9d3a741e68aff4df075a9b4".
Proof. vm_compute. reflexivity. Qed.

Example hmac_sha512_gen_k127_m64 :
  hmac_sha512 (hex "283f160e226455f6e121299b50748a3b8ac1b5feae0a348c2181fd31e30056bbb518767a32ce1af72d3f8153e1b57974d3ec85546c8d3727b0234d348f122d88bf4cbfde1bcee172e926d78d9c8a7705d53f02fdd154e3a28200baaff1137af4bd4f7d35c4aacc0659b50c9585b2c86d411f01b89eb741805428adef2911af")
    (hex "fcc951afb2eb0a10f6c42bf53fff08dd3ebae941bc96fbbcbc49513beab945c2aedd90ba74f0ebe9ffb10c71e1c253865f5785b35fcc50d634d78d4156657690")
  = hex "042d7e2a978c0b7e5255145030d706e2128c3c044a8274d07e7b4c26733d4b371204238ea24e334b299fb5edfc5f0a010acbf5e75e41c4ebfe74946a8950b000".
Proof. vm_compute. reflexivity. Qed.

Example hmac_sha512_gen_k127_m200 :
  hmac_sha512 (hex "283f160e226455f6e121299b50748a3b8ac1b5feae0a348c2181fd31e30056bbb518767a32ce1af72d3f8153e1b57974d3ec85546c8d3727b0234d348f122d88bf4cbfde1bcee172e926d78d9c8a7705d53f02fdd154e3a28200baaff1137af4bd4f7d35c4aacc0659b50c9585b2c86d411f01b89eb741805428adef2911af")
    (hex "0d812ced0d5d6dfcdcd91fda8d7752c0576825105ee8c4b5a4daf5f214d0eefa06044edba7d7588f15f6e55838269ea88c5d6b2e6cb33ee4a538982c47db6c4806d64dd6a74ffc0d3e2cc7dc47495940d178db5d531c9131d4304cfe8b0c69af194825d5fc798917edc231193f59b437669274ae51030ef639d1c077f84877d62f3d5681b5e1f3421c0e94f5492723ae6b18b6e4cb1ccc81403ca7d64bc86ed91d2de33708e5f316267e658c34d56139e80ca87846efa414b7a9b891e31a69479b23540b4eb7040f")
  = hex "881d546ba0320a6552981c0da0152ad4696fb05de59becaf006e65f6f1e9728bb00755ca6cbfbad3dc0d83a8cca59345a696f93bc6a4ed4f3bce942b7834b4c4".
Proof. vm_compute. reflexivity. Qed.

Example hmac_sha512_gen_k128_m55 :
  hmac_sha512 (hex "2d270a7840e020452ed3d0926af1a3879350c94439d0228a6e0734c3f1088e2327d05fda43703e833455744b542c3d7fe243d17dc684312b2b43fc83df8fd4c5a3ca186cb8a3f1f06ebbf7ea7aa0fd3d49d2b33db2063c06a2e2de7bb1d9729abfe83922fb5b2db6fbe208f9ca8e92500b87e6439c92c8b056bd3a40d5c1ebdc")
    (hex "f7e15d45946f3fc1a91285fe2682ef92362bd5fc30d00dbf6ec31ba9dcb10c5a3b26a75a634dc65cf89a19796f4b907b5000398a06d556")
  = hex "a94c2379a44bfadf5b82ab3b9830cd140dbc2df76c1f5a9a333ed03f0a817e18b29e2a3221c6185d9f06c24c5eace3695f79fcacc493e8827c6b9d5f17461149".
Proof. vm_compute. reflexivity. Qed.

Example hmac_sha512_gen_k128_m128 :
  hmac_sha512 (hex "2d270a7840e020452ed3d0926af1a3879350c94439d0228a6e0734c3f1088e2327d05fda43703e833455744b542c3d7fe243d17dc684312b2b43fc83df8fd4c5a3ca186cb8a3f1f06ebbf7ea7aa0fd3d49d2b33db2063c06a2e2de7bb1d9729abfe83922fb5b2db6fbe208f9ca8e92500b87e6439c92c8b056bd3a40d5c1ebdc")
    (hex "08993883efe2a1ad8f2779e373f939754fd811cbd322d7b75754bf6006c9b692934c647b963533020edff261c6afda9d7d061e0512bb44df2a18e9ddf65fc50b2258f4480a7aec8fba97a77f6933d3085de52a1d716a38cdb44e2832cb46710917af69e7c4c928674b9535b4fa7dea559b2a8e23532887c7373c33264d993b9c")
  = hex "62a939013ec367dddb9e446ff95ccc19c5a858e1fd448977fe0f7be7eda1c2a15cd5cbdf0ff3d44fe4047fb611b6d3084dbc3505fe1e9544b824a637ce5714ea".
Proof. vm_compute. reflexivity. Qed.

Example hmac_sha512_gen_k128_m200 :
  hmac_sha512 (hex "2d270a7840e020452ed3d0926af1a3879350c94439d0228a6e0734c3f1088e2327d05fda43703e833455744b542c3d7fe243d17dc684312b2b43fc83df8fd4c5a3ca186cb8a3f1f06ebbf7ea7aa0fd3d49d2b33db2063c06a2e2de7bb1d9729abfe83922fb5b2db6fbe208f9ca8e92500b87e6439c92c8b056bd3a40d5c1ebdc")
    (hex "0d812ced0d5d6dfcdcd91fda8d7752c0576825105ee8c4b5a4daf5f214d0eefa06044edba7d7588f15f6e55838269ea88c5d6b2e6cb33ee4a538982c47db6c4806d64dd6a74ffc0d3e2cc7dc47495940d178db5d531c9131d4304cfe8b0c69af194825d5fc798917edc231193f59b437669274ae51030ef639d1c077f84877d62f3d5681b5e1f3421c0e94f5492723ae6b18b6e4cb1ccc81403ca7d64bc86ed91d2de33708e5f316267e658c34d56139e80ca87846efa414b7a9b891e31a69479b23540b4eb7040f")
  = hex "bcc4d88c7b076e7cd7a48b18e532f85a75cadc54d915cf3ad08c497eac110f91daf0a04b4637d88cf9ce44511643ce625cfba5a6875e991e39ff4677fbf99854".
Proof. vm_compute. reflexivity. Qed.

Example hmac_sha512_gen_k129_m1 :
  hmac_sha512 (hex "330ffde15f5beb947a84768a846ebbd39be0dd89c5960f87bc8c6a55ff10c78b9a87493b541363103c6c6743c6a2008bf19b1ea61f7c2b30a563aad1300c7b03874871fb5577006ff351174758b68375be65657c93b7956ac1c50247709f6a41c280f610320b8e679e0f045e0f6b5b32d6efcccd9a6d4fdf5951c89280702617a9")
    (hex "f1")
  = hex "33ad362303f69a68083a2254a8b5e9a1540a66d0f03dcbeda9dd8d45ca86b3c4d11f08d5e84e470ad9ca9fac65b0a4307e6bd74df212be15dafd225e8f53cf2e".
Proof. vm_compute. reflexivity. Qed.

Example hmac_sha512_gen_k129_m111 :
  hmac_sha512 (hex "330ffde15f5beb947a84768a846ebbd39be0dd89c5960f87bc8c6a55ff10c78b9a87493b541363103c6c6743c6a2008bf19b1ea61f7c2b30a563aad1300c7b03874871fb5577006ff351174758b68375be65657c93b7956ac1c50247709f6a41c280f610320b8e679e0f045e0f6b5b32d6efcccd9a6d4fdf5951c89280702617a9")
    (hex "02b14519d166d65f4376d2ec597c20294649fd86475ce9ba09ce88cdf8c17d2a21957a1a85920f7506c8ff69543917916eaed2dcb9c44adbaff83b8fa6e21ecd3fda9bba6ca6dd10350287228b1d4cd0e85278de90b9df69956c04660c8078631417acfa8d19c7b7a8673a50b5a021")
  = hex "51e4beb1a1d8b1a075459789d97303b7c2f44d1e69f22696349434b2136a2658acf520ce0a61a76dcff7fd3b1bec432a8fcfc142671cbd44ca7a5a1ab819fffe".
Proof. vm_compute. reflexivity. Qed.

Example hmac_sha512_gen_k164_m0 :
  hmac_sha512 (hex "38f7f14b7dd7b7e3c7361d819decd41ea36ff1ce505cfd850912a1e70d1800f40d3f339b65b5879d43835a3b3819c49600f26acf797326352083591f808822406ac6ca89f34c0fed78e637a436cb09ad32f917bc7469eecee1a72613306662e7c419b3fd6abbef17413dffc354482415a157b2579948d60e5be656e32c206251f1d5e916b17909d15ffc835072a95a7114f5fd99df6fa4257f3fba62a6fb87dd2dad7223")
    ([])
  = hex "13d8097f4f95d377cca81beaeabf233ff2a8396e2f902f8fd4249c5aafad5dcc66aa5cc303cf23654d39b08fc498ed7e68b00dc8cf19ec64e76384b0e714a0cf".
Proof. vm_compute. reflexivity. Qed.

Example hmac_sha512_gen_k164_m64 :
  hmac_sha512 (hex "38f7f14b7dd7b7e3c7361d819decd41ea36ff1ce505cfd850912a1e70d1800f40d3f339b65b5879d43835a3b3819c49600f26acf797326352083591f808822406ac6ca89f34c0fed78e637a436cb09ad32f917bc7469eecee1a72613306662e7c419b3fd6abbef17413dffc354482415a157b2579948d60e5be656e32c206251f1d5e916b17909d15ffc835072a95a7114f5fd99df6fa4257f3fba62a6fb87dd2dad7223")
    (hex "fcc951afb2eb0a10f6c42bf53fff08dd3ebae941bc96fbbcbc49513beab945c2aedd90ba74f0ebe9ffb10c71e1c253865f5785b35fcc50d634d78d4156657690")
  = hex "40b82a686af02f76317a6e2ab3637ab63b719d4a232602b52c38afcd141fb5d2c129dbc84c68600bcc13cf0cb550191b3b294641ff260cdcc9fb748b4f8fc761".
Proof. vm_compute. reflexivity. Qed.

Example hmac_sha512_gen_k164_m200 :
  hmac_sha512 (hex "38f7f14b7dd7b7e3c7361d819decd41ea36ff1ce505cfd850912a1e70d1800f40d3f339b65b5879d43835a3b3819c49600f26acf797326352083591f808822406ac6ca89f34c0fed78e637a436cb09ad32f917bc7469eecee1a72613306662e7c419b3fd6abbef17413dffc354482415a157b2579948d60e5be656e32c206251f1d5e916b17909d15ffc835072a95a7114f5fd99df6fa4257f3fba62a6fb87dd2dad7223")
    (hex "0d812ced0d5d6dfcdcd91fda8d7752c0576825105ee8c4b5a4daf5f214d0eefa06044edba7d7588f15f6e55838269ea88c5d6b2e6cb33ee4a538982c47db6c4806d64dd6a74ffc0d3e2cc7dc47495940d178db5d531c9131d4304cfe8b0c69af194825d5fc798917edc231193f59b437669274ae51030ef639d1c077f84877d62f3d5681b5e1f3421c0e94f5492723ae6b18b6e4cb1ccc81403ca7d64bc86ed91d2de33708e5f316267e658c34d56139e80ca87846efa414b7a9b891e31a69479b23540b4eb7040f")
  = hex "e66892db1d9ae7442ce989fb8e645a9f7642507f85231400cb00b69daaeb2128857bff7ae7c1de46161262b3c3b969b0d7191cde83ea1713bd5cabf635653e1d".
Proof. vm_compute. reflexivity. Qed.

Example hmac_sha512_gen_k259_m55 :
  hmac_sha512 (hex "3edfe4b59b52823114e7c478b769ed6aabfe0513dc22eb825698d8791b20385c80f61dfb7658ab2a4b9a4d32ab9087a10f4ab7f8d26b203a9ba3076ed005ca7e4e44241790201f6cfd7b570115e18fe6a78cc8fb561b473201894adff02c5b8dc6b16feba16c50c7e46afb279925eef86bbf98e297235d3d5d7be334d7d09e8b39c9c89fd4de488f6e6c28aed0889f9c8680d9b53b5af5af36d0ec97d98f597f2cbc4b9dc800a19bbdaba060479db49b571193c25c7a3364c90351f53d6e6974575d6a94913e8b46a772f9ce7d5851c1705820998722d2b705b3d1003cd4ba78a824ea79b6e8ca71b6339d4ce813afdf99de3010bdd3208b8ea3012f048c509d3f2ce3")
    (hex "f7e15d45946f3fc1a91285fe2682ef92362bd5fc30d00dbf6ec31ba9dcb10c5a3b26a75a634dc65cf89a19796f4b907b5000398a06d556")
  = hex "dad627476e44365656cc52e7558c4c188dd9ff391a6819abec1942dce023d8484497ee72366c8f50380f34b23bd3bbe3e82694f2307af4f035f6e39dd6ea4012".
Proof. vm_compute. reflexivity. Qed.

Example hmac_sha512_gen_k259_m128 :
  hmac_sha512 (hex "3edfe4b59b52823114e7c478b769ed6aabfe0513dc22eb825698d8791b20385c80f61dfb7658ab2a4b9a4d32ab9087a10f4ab7f8d26b203a9ba3076ed005ca7e4e44241790201f6cfd7b570115e18fe6a78cc8fb561b473201894adff02c5b8dc6b16feba16c50c7e46afb279925eef86bbf98e297235d3d5d7be334d7d09e8b39c9c89fd4de488f6e6c28aed0889f9c8680d9b53b5af5af36d0ec97d98f597f2cbc4b9dc800a19bbdaba060479db49b571193c25c7a3364c90351f53d6e6974575d6a94913e8b46a772f9ce7d5851c1705820998722d2b705b3d1003cd4ba78a824ea79b6e8ca71b6339d4ce813afdf99de3010bdd3208b8ea3012f048c509d3f2ce3")
    (hex "08993883efe2a1ad8f2779e373f939754fd811cbd322d7b75754bf6006c9b692934c647b963533020edff261c6afda9d7d061e0512bb44df2a18e9ddf65fc50b2258f4480a7aec8fba97a77f6933d3085de52a1d716a38cdb44e2832cb46710917af69e7c4c928674b9535b4fa7dea559b2a8e23532887c7373c33264d993b9c")
  = hex "7db26769024e08711ec7bd13e3ce60c131051d815705a90ae820c361d2923193383692501ef856f22f868921f8f65c4257552a7f1afd8ce2dd0200f295708401".
Proof. vm_compute. reflexivity. Qed.

(* ================= pbkdf2 ================= *)

(* published: RFC 6070 (PBKDF2-HMAC-SHA1) test vectors 1, 2 and 3 (iteration counts 1, 2, 4096) *)
Example pbkdf2_sha1_rfc6070_1 :
  pbkdf2_sha1 (str "password") (str "salt") 1 20%nat
  = hex "0c60c80f961f0e71f3a9b524af6012062fe037a6".
Proof. rewrite pbkdf2_sha1_mid. vm_compute. reflexivity. Qed.

Example pbkdf2_sha1_rfc6070_2 :
  pbkdf2_sha1 (str "password") (str "salt") 2 20%nat
  = hex "ea6c014dc72d6f8ccd1ed92ace1d41f0d8de8957".
Proof. rewrite pbkdf2_sha1_mid. vm_compute. reflexivity. Qed.

Example pbkdf2_sha1_rfc6070_3 :
  pbkdf2_sha1 (str "password") (str "salt") 4096 20%nat
  = hex "4b007901b765489abead49d926f721d065a429c1".
Proof. rewrite pbkdf2_sha1_mid. vm_compute. reflexivity. Qed.

(* published: RFC 3962 appendix B (PBKDF2 stage of the Kerberos AES string-to-key):
   iteration counts 1, 2, 1200 with salt ATHENA.MIT.EDUraeburn, and 5 with salt 0x1234567878563412 *)
Example pbkdf2_sha1_rfc3962_1 :
  pbkdf2_sha1 (str "password") (str "ATHENA.MIT.EDUraeburn") 1 16%nat
  = hex "cdedb5281bb2f801565a1122b2563515".
Proof. rewrite pbkdf2_sha1_mid. vm_compute. reflexivity. Qed.

Example pbkdf2_sha1_rfc3962_2 :
  pbkdf2_sha1 (str "password") (str "ATHENA.MIT.EDUraeburn") 1 32%nat
  = hex "cdedb5281bb2f801565a1122b25635150ad1f7a04bb9f3a333ecc0e2e1f70837".
Proof. rewrite pbkdf2_sha1_mid. vm_compute. reflexivity. Qed.

Example pbkdf2_sha1_rfc3962_3 :
  pbkdf2_sha1 (str "password") (str "ATHENA.MIT.EDUraeburn") 2 16%nat
  = hex "01dbee7f4a9e243e988b62c73cda935d".
Proof. rewrite pbkdf2_sha1_mid. vm_compute. reflexivity. Qed.

Example pbkdf2_sha1_rfc3962_4 :
  pbkdf2_sha1 (str "password") (str "ATHENA.MIT.EDUraeburn") 2 32%nat
  = hex "01dbee7f4a9e243e988b62c73cda935da05378b93244ec8f48a99e61ad799d86".
Proof. rewrite pbkdf2_sha1_mid. vm_compute. reflexivity. Qed.

Example pbkdf2_sha1_rfc3962_5 :
  pbkdf2_sha1 (str "password") (str "ATHENA.MIT.EDUraeburn") 1200 32%nat
  = hex "5c08eb61fdf71e4e4ec3cf6ba1f5512ba7e52ddbc5e5142f708a31e2e62b1e13".
Proof. rewrite pbkdf2_sha1_mid. vm_compute. reflexivity. Qed.

Example pbkdf2_sha1_rfc3962_6 :
  pbkdf2_sha1 (str "password") (hex "1234567878563412") 5 16%nat
  = hex "d1daa78615f287e6a1c8b120d7062a49".
Proof. rewrite pbkdf2_sha1_mid. vm_compute. reflexivity. Qed.

Example pbkdf2_sha1_rfc3962_7 :
  pbkdf2_sha1 (str "password") (hex "1234567878563412") 5 32%nat
  = hex "d1daa78615f287e6a1c8b120d7062a493f98d203e6be49a6adf4fa574b6e64ee".
Proof. rewrite pbkdf2_sha1_mid. vm_compute. reflexivity. Qed.

(* inputs of RFC 6070 vectors 5, 6 and of the RFC 3962 64-/65-byte pass phrases, but with small
   iteration counts (outputs from golang.org/x/crypto/pbkdf2) *)
Example pbkdf2_sha1_var_1 :
  pbkdf2_sha1 (str "passwordPASSWORDpassword") (str "saltSALTsaltSALTsaltSALTsaltSALTsalt") 1 25%nat
  = hex "91b28c9be987f7b2c91a8f3f284136283a0de2bbd1539a44f3".
Proof. rewrite pbkdf2_sha1_mid. vm_compute. reflexivity. Qed.

Example pbkdf2_sha1_var_2 :
  pbkdf2_sha1 (hex "7061737300776f7264") (hex "7361006c74") 2 16%nat
  = hex "6e6df5e5f1752bbbd40f5531fe2e1d1d".
Proof. rewrite pbkdf2_sha1_mid. vm_compute. reflexivity. Qed.

Example pbkdf2_sha1_var_3 :
  pbkdf2_sha1 (str "XXXXXXXXXXXXXXXXXXXXXXXXXXXXXXXXXXXXXXXXXXXXXXXXXXXXXXXXXXXXXXXX") (str "pass phrase equals block size") 5 32%nat
  = hex "b1e8a6c22bc4435807ac10ccfc59cc760e138a3ad6a160d719e3eae1446b8449".
Proof. rewrite pbkdf2_sha1_mid. vm_compute. reflexivity. Qed.

Example pbkdf2_sha1_var_4 :
  pbkdf2_sha1 (str "XXXXXXXXXXXXXXXXXXXXXXXXXXXXXXXXXXXXXXXXXXXXXXXXXXXXXXXXXXXXXXXXX") (str "pass phrase exceeds block size") 5 32%nat
  = hex "d99a2823757cac5ed4241d7b9d2995badd77302f2185e14625d26cfe6934ee51".
Proof. rewrite pbkdf2_sha1_mid. vm_compute. reflexivity. Qed.

(* pbkdf2_sha1: generated with golang.org/x/crypto/pbkdf2 *)
Example pbkdf2_sha1_gen_c1_dk16 :
  pbkdf2_sha1 (hex "c09bb112e8ff5e3d")
    (hex "9525ecb4788514573af53cc3") 1 16%nat
  = hex "55aea3f4f856a99962dda4a4f9a826b2".
Proof. rewrite pbkdf2_sha1_mid. vm_compute. reflexivity. Qed.

Example pbkdf2_sha1_gen_c1_dk32 :
  pbkdf2_sha1 (hex "c683a57c067a298c71")
    (hex "9b0ddf1e9701dfa586a7e2baeb1b") 1 32%nat
  = hex "2b8026d7fa35deb7f453dd7262a3697efe2046719e798d128ea4718c1171c009".
Proof. rewrite pbkdf2_sha1_mid. vm_compute. reflexivity. Qed.

Example pbkdf2_sha1_gen_c1_dk40 :
  pbkdf2_sha1 (hex "cb6b98e625f6f5dbbeb5")
    (hex "a0f5d387b57cabf4d35889b10598ead6") 1 40%nat
  = hex "bfabf110ca32b075f8b362c2f19c657980936d8b03f1f3fa86d062a06af9ecd30c6ce0914eb3b468".
Proof. rewrite pbkdf2_sha1_mid. vm_compute. reflexivity. Qed.

Example pbkdf2_sha1_gen_c2_dk16 :
  pbkdf2_sha1 (hex "d1538c504371c0290b672d")
    (hex "a6ddc6f1d3f87643200a30a81e150322a6ac") 2 16%nat
  = hex "fe462d18bc4f0291e5fd4831987c445f".
Proof. rewrite pbkdf2_sha1_mid. vm_compute. reflexivity. Qed.

Example pbkdf2_sha1_gen_c2_dk32 :
  pbkdf2_sha1 (hex "d73b7fba61ed8c785819d446")
    (hex "abc5ba5bf27342926dbcd69f38921c6eae3b670b") 2 32%nat
  = hex "012520122ec36d6966a0c0cc7af0b9f95372ef7ef11f9e91f060e2bdad87f2ed".
Proof. rewrite pbkdf2_sha1_mid. vm_compute. reflexivity. Qed.

Example pbkdf2_sha1_gen_c2_dk40 :
  pbkdf2_sha1 (hex "dc237324806857c7a5ca7b3d63")
    (hex "b1adadc510ef0de1ba6d7d96520f34b9b6ca7b50ef3a") 2 40%nat
  = hex "5258894b1c0ab91fa4a66a02f7c1628ba33c2ff8ccb849d589591e33a264f460b8a0d6fd6c57a497".
Proof. rewrite pbkdf2_sha1_mid. vm_compute. reflexivity. Qed.

Example pbkdf2_sha1_gen_c5_dk16 :
  pbkdf2_sha1 (hex "e20b668e9ee42316f17c21347c02")
    (hex "b695a12f2e6ad830061f248d6c8d4d05be598f957b005314") 5 16%nat
  = hex "7df497fd39b66b6c32ca97f79e2dceb9".
Proof. rewrite pbkdf2_sha1_mid. vm_compute. reflexivity. Qed.

Example pbkdf2_sha1_gen_c5_dk32 :
  pbkdf2_sha1 (hex "e7f35af8bc5fee653e2dc82b967fe8")
    (hex "bc7d94994de6a47f53d0ca85860a6651c6e8a3da06c6411228ee") 5 32%nat
  = hex "0f4d27cfb794a2663bff9d11d4fa17364342a842da974695d1a3c1353caa733a".
Proof. rewrite pbkdf2_sha1_mid. vm_compute. reflexivity. Qed.

Example pbkdf2_sha1_gen_c5_dk40 :
  pbkdf2_sha1 (hex "eddb4d62dbdbb9b48bdf6f22b0fc01fa")
    (hex "c26588036b616fcea082717ca0877e9ccf77b720928c2e0f75740b2b") 5 40%nat
  = hex "d65ee504c67efccaef999af3d3f246ebea914ef178c6904021cb472a4e874e57421374f2fe25f0b2".
Proof. rewrite pbkdf2_sha1_mid. vm_compute. reflexivity. Qed.

Example pbkdf2_sha1_gen_p150_s16_c3_dk100 :
  pbkdf2_sha1 (hex "5ede3f81cc1533d3b535f12e8d2f054a31d924ae2d5cac5809033d80b9bbf6ce5d975098e329a8fe5096eef3a5971084b9e3090278b5b6cc5d55e2de18ee0f73bb150b4ed9b446796c58789d87141638095c9c45e3a8b13bafbb9f609fcebad605109aeff8314d98dde8e9f7d8a816895f038a5e8a5c7d36c5eb93a80344d993a8d0ab7db0f1bea8dbc29ffcdea8540edb2c02e5afca")
    (hex "33687a225d9be9eccad8f3887cba83ec") 3 100%nat
  = hex "cbd295ea0d6be6a743f1bc752d0dc1e0c111de62ee27b5561819229dbf79db20553f701a261270d926de2042e0c7a924fe8fc04014da0530cc9030be453998b03e804c2559d66af0656b1bf434ec06c3267c1a3d820506495bd2179f584cec019f76713d".
Proof. rewrite pbkdf2_sha1_mid. vm_compute. reflexivity. Qed.

Example pbkdf2_sha1_gen_p64_s0_c2_dk20 :
  pbkdf2_sha1 (hex "64c633ebea90fe2102e79725a6ac1e96396838f3b8229a5657897412c7c32f36cf4e3af8f4cccc8b57ade1eb170dd48fc83b552bd2acb1d1d775902c696bb7b1")
    ([]) 2 20%nat
  = hex "c1bd80a429e28c9ed01291f2e8d3913c2a725e96".
Proof. rewrite pbkdf2_sha1_mid. vm_compute. reflexivity. Qed.

Example pbkdf2_sha1_gen_p5_s8_c1_dk0 :
  pbkdf2_sha1 (hex "6aaf265509")
    (hex "3e3961f69992808a") 1 0%nat
  = hex "".
Proof. rewrite pbkdf2_sha1_mid. vm_compute. reflexivity. Qed.

Example pbkdf2_sha1_gen_p5_s8_c0_dk24 :
  pbkdf2_sha1 (hex "6f971abf27")
    (hex "44215460b80e4bd9") 0 24%nat
  = hex "08f7a396e77d5f2e69e1dac472785dd80875942b982d2e34".
Proof. rewrite pbkdf2_sha1_mid. vm_compute. reflexivity. Qed.

Example pbkdf2_sha1_gen_p129_s130_c5_dk48 :
  pbkdf2_sha1 (hex "757f0d294603610ee8fb8b0bf4236879521674c35b74634e3f1918c9f2dad96e2775f71927b339316df1bad26f721eb1f5413ba6de939fdf48d59b175ae2ac694a0d70864e0684737fadf711006a2f19dca96343686e15cb2e442f909de79b6f0e728ca6d5f2d259689cd78aeb1b3c138aa3228783c899f2cd3ecaedb103c77cc9")
    (hex "490948cad6891628fd9e8d64e3aee61b060fa90569002a7edae16cd4f993c875213a125968d50a233f6445f06f7ff8c381ac3b05d1d3b78ecc8ada242035f671e61df2d40209709346f4874a11e87fac7b2927e44621b82e21cd557bf88ea13764a2ff7d67b16c5a152109e0d52ccb364fdee3dd3c83d0dbac2835817e2bdc01070b") 5 48%nat
  = hex "c28bca5147b5cc50f9269e6c25dfe9e056d71750c30cf5152bac250134d06801a3b5a1b9591cf4320622797f10dee317".
Proof. rewrite pbkdf2_sha1_mid. vm_compute. reflexivity. Qed.

(* pbkdf2_sha256: generated with golang.org/x/crypto/pbkdf2 *)
Example pbkdf2_sha256_gen_c1_dk16 :
  pbkdf2_sha256 (hex "cb6b98e625f6f5db")
    (hex "a0f5d387b57cabf4d35889b1") 1 16%nat
  = hex "cc9befa5c35786f63cb7e1d562ecd151".
Proof. rewrite pbkdf2_sha256_mid. vm_compute. reflexivity. Qed.

Example pbkdf2_sha256_gen_c1_dk32 :
  pbkdf2_sha256 (hex "d1538c504371c0290b")
    (hex "a6ddc6f1d3f87643200a30a81e15") 1 32%nat
  = hex "8d35e7621c76d2ea4076a7660e346690f06efc6b74ceb2fd374a61d91441ae0e".
Proof. rewrite pbkdf2_sha256_mid. vm_compute. reflexivity. Qed.

Example pbkdf2_sha256_gen_c1_dk40 :
  pbkdf2_sha256 (hex "d73b7fba61ed8c785819")
    (hex "abc5ba5bf27342926dbcd69f38921c6e") 1 40%nat
  = hex "d4428d33ace510ef35c9bea15e7ac31f2052ff8ab930f7d8fc4342c5c2234c2ea17e844cfa944a96".
Proof. rewrite pbkdf2_sha256_mid. vm_compute. reflexivity. Qed.

Example pbkdf2_sha256_gen_c2_dk16 :
  pbkdf2_sha256 (hex "dc237324806857c7a5ca7b")
    (hex "b1adadc510ef0de1ba6d7d96520f34b9b6ca") 2 16%nat
  = hex "5471ba08c2db9debd600084820157f9d".
Proof. rewrite pbkdf2_sha256_mid. vm_compute. reflexivity. Qed.

Example pbkdf2_sha256_gen_c2_dk32 :
  pbkdf2_sha256 (hex "e20b668e9ee42316f17c2134")
    (hex "b695a12f2e6ad830061f248d6c8d4d05be598f95") 2 32%nat
  = hex "d29269ebe84944393732ae894082ad15ad818d92267adf2f324139ca44a79551".
Proof. rewrite pbkdf2_sha256_mid. vm_compute. reflexivity. Qed.

Example pbkdf2_sha256_gen_c2_dk40 :
  pbkdf2_sha256 (hex "e7f35af8bc5fee653e2dc82b96")
    (hex "bc7d94994de6a47f53d0ca85860a6651c6e8a3da06c6") 2 40%nat
  = hex "97698b7930e7bd374ba88bb4e9e697b4a8c6ce9d1716425aad8cfc1ae09aa29b0b9941474be5697f".
Proof. rewrite pbkdf2_sha256_mid. vm_compute. reflexivity. Qed.

Example pbkdf2_sha256_gen_c5_dk16 :
  pbkdf2_sha256 (hex "eddb4d62dbdbb9b48bdf6f22b0fc")
    (hex "c26588036b616fcea082717ca0877e9ccf77b720928c2e0f") 5 16%nat
  = hex "5fcf43e152858ec12233c726595f7cd8".
Proof. rewrite pbkdf2_sha256_mid. vm_compute. reflexivity. Qed.

Example pbkdf2_sha256_gen_c5_dk32 :
  pbkdf2_sha256 (hex "f3c341cbf9568503d8901519ca791a")
    (hex "c74d7b6d8add3b1ced331873b90497e8d707cb651e521c0dc2f9") 5 32%nat
  = hex "fb2e57e6deebeb28af3ee59eade6f00163207bca17ec582dfde621a1aadc5adb".
Proof. rewrite pbkdf2_sha256_mid. vm_compute. reflexivity. Qed.

Example pbkdf2_sha256_gen_c5_dk40 :
  pbkdf2_sha256 (hex "f8ab343517d250522542bc10e4f63292")
    (hex "cd356fd7a858066b3ae5be6ad381b034df96dfaaa9180a0a107f7850") 5 40%nat
  = hex "e10addeffdcf02b9529092ca8821ca403030431f811acc7eb23ae156842768f681595e328940da6c".
Proof. rewrite pbkdf2_sha256_mid. vm_compute. reflexivity. Qed.

Example pbkdf2_sha256_gen_p150_s16_c3_dk100 :
  pbkdf2_sha256 (hex "5ede3f81cc1533d3b535f12e8d2f054a31d924ae2d5cac5809033d80b9bbf6ce5d975098e329a8fe5096eef3a5971084b9e3090278b5b6cc5d55e2de18ee0f73bb150b4ed9b446796c58789d87141638095c9c45e3a8b13bafbb9f609fcebad605109aeff8314d98dde8e9f7d8a816895f038a5e8a5c7d36c5eb93a80344d993a8d0ab7db0f1bea8dbc29ffcdea8540edb2c02e5afca")
    (hex "33687a225d9be9eccad8f3887cba83ec") 3 100%nat
  = hex "9949fb6163e860426219eb940e6529ae4ad69dbe1a4817caa987e55398dce810676b210cae1fa0a298188365709283d8e63b81f91b943b852ca9f62350e4ac3decf46c5e2d5227d594b7e7522272886d48d1530f765f3edbe1822af00720c69ffbc6842d".
Proof. rewrite pbkdf2_sha256_mid. vm_compute. reflexivity. Qed.

Example pbkdf2_sha256_gen_p64_s0_c2_dk20 :
  pbkdf2_sha256 (hex "64c633ebea90fe2102e79725a6ac1e96396838f3b8229a5657897412c7c32f36cf4e3af8f4cccc8b57ade1eb170dd48fc83b552bd2acb1d1d775902c696bb7b1")
    ([]) 2 20%nat
  = hex "f04ff1a179da314800effcb66a84cb499e015ed6".
Proof. rewrite pbkdf2_sha256_mid. vm_compute. reflexivity. Qed.

Example pbkdf2_sha256_gen_p5_s8_c1_dk0 :
  pbkdf2_sha256 (hex "6aaf265509")
    (hex "3e3961f69992808a") 1 0%nat
  = hex "".
Proof. rewrite pbkdf2_sha256_mid. vm_compute. reflexivity. Qed.

Example pbkdf2_sha256_gen_p5_s8_c0_dk24 :
  pbkdf2_sha256 (hex "6f971abf27")
    (hex "44215460b80e4bd9") 0 24%nat
  = hex "04c8efccdb7818da7104febe3ef32be105280fed36e1bd82".
Proof. rewrite pbkdf2_sha256_mid. vm_compute. reflexivity. Qed.

Example pbkdf2_sha256_gen_p129_s130_c5_dk48 :
  pbkdf2_sha256 (hex "757f0d294603610ee8fb8b0bf4236879521674c35b74634e3f1918c9f2dad96e2775f71927b339316df1bad26f721eb1f5413ba6de939fdf48d59b175ae2ac694a0d70864e0684737fadf711006a2f19dca96343686e15cb2e442f909de79b6f0e728ca6d5f2d259689cd78aeb1b3c138aa3228783c899f2cd3ecaedb103c77cc9")
    (hex "490948cad6891628fd9e8d64e3aee61b060fa90569002a7edae16cd4f993c875213a125968d50a233f6445f06f7ff8c381ac3b05d1d3b78ecc8ada242035f671e61df2d40209709346f4874a11e87fac7b2927e44621b82e21cd557bf88ea13764a2ff7d67b16c5a152109e0d52ccb364fdee3dd3c83d0dbac2835817e2bdc01070b") 5 48%nat
  = hex "e2096fb0cb489fd22f8223a96dee165b5593d8dd5cc96ef7fab867a3fb3efeaa897a355fc3b09bf31b7bf6e49405527c".
Proof. rewrite pbkdf2_sha256_mid. vm_compute. reflexivity. Qed.

(* pbkdf2_sha384: generated with golang.org/x/crypto/pbkdf2 *)
Example pbkdf2_sha384_gen_c1_dk16 :
  pbkdf2_sha384 (hex "cb6b98e625f6f5db")
    (hex "a0f5d387b57cabf4d35889b1") 1 16%nat
  = hex "37f5856bbabd78853e3aad166d0b6845".
Proof. rewrite pbkdf2_sha384_mid. vm_compute. reflexivity. Qed.

Example pbkdf2_sha384_gen_c1_dk32 :
  pbkdf2_sha384 (hex "d1538c504371c0290b")
    (hex "a6ddc6f1d3f87643200a30a81e15") 1 32%nat
  = hex "d17064606a6db360ac75c508f2af62f6c81b41c26ebc9321a8e5e467d785f94c".
Proof. rewrite pbkdf2_sha384_mid. vm_compute. reflexivity. Qed.

Example pbkdf2_sha384_gen_c1_dk40 :
  pbkdf2_sha384 (hex "d73b7fba61ed8c785819")
    (hex "abc5ba5bf27342926dbcd69f38921c6e") 1 40%nat
  = hex "4d1022df2a531fbcc6736626803115dd903ce3062155a8f87d0ba32fb253e063712b7e4ee7c78cd1".
Proof. rewrite pbkdf2_sha384_mid. vm_compute. reflexivity. Qed.

Example pbkdf2_sha384_gen_c2_dk16 :
  pbkdf2_sha384 (hex "dc237324806857c7a5ca7b")
    (hex "b1adadc510ef0de1ba6d7d96520f34b9b6ca") 2 16%nat
  = hex "dc543aebaaa1642aad7408ff326968d5".
Proof. rewrite pbkdf2_sha384_mid. vm_compute. reflexivity. Qed.

Example pbkdf2_sha384_gen_c2_dk32 :
  pbkdf2_sha384 (hex "e20b668e9ee42316f17c2134")
    (hex "b695a12f2e6ad830061f248d6c8d4d05be598f95") 2 32%nat
  = hex "8a62c9ed57fea4da50853ee1a223f6207a12e2dbbbc5ca748846beda008d5023".
Proof. rewrite pbkdf2_sha384_mid. vm_compute. reflexivity. Qed.

Example pbkdf2_sha384_gen_c2_dk40 :
  pbkdf2_sha384 (hex "e7f35af8bc5fee653e2dc82b96")
    (hex "bc7d94994de6a47f53d0ca85860a6651c6e8a3da06c6") 2 40%nat
  = hex "b7bc92d38345254b4804336c13efd3d00d0898a781d1e176a8c416adf6aaff8f5d76faa85ae84e42".
Proof. rewrite pbkdf2_sha384_mid. vm_compute. reflexivity. Qed.

Example pbkdf2_sha384_gen_c5_dk16 :
  pbkdf2_sha384 (hex "eddb4d62dbdbb9b48bdf6f22b0fc")
    (hex "c26588036b616fcea082717ca0877e9ccf77b720928c2e0f") 5 16%nat
  = hex "d965197a5ba281655c6b93dbf42bd5ec".
Proof. rewrite pbkdf2_sha384_mid. vm_compute. reflexivity. Qed.

Example pbkdf2_sha384_gen_c5_dk32 :
  pbkdf2_sha384 (hex "f3c341cbf9568503d8901519ca791a")
    (hex "c74d7b6d8add3b1ced331873b90497e8d707cb651e521c0dc2f9") 5 32%nat
  = hex "5ccf2f2443a66b9deafc50d4bc38aa4a5f16796703f7853e3c75f325e73f1211".
Proof. rewrite pbkdf2_sha384_mid. vm_compute. reflexivity. Qed.

Example pbkdf2_sha384_gen_c5_dk40 :
  pbkdf2_sha384 (hex "f8ab343517d250522542bc10e4f63292")
    (hex "cd356fd7a858066b3ae5be6ad381b034df96dfaaa9180a0a107f7850") 5 40%nat
  = hex "781b88c88d09b6cddd8865a20413db82159949966be53237f604f9ba1241a3fc3c2c44a73baeba2e".
Proof. rewrite pbkdf2_sha384_mid. vm_compute. reflexivity. Qed.

Example pbkdf2_sha384_gen_p150_s16_c3_dk100 :
  pbkdf2_sha384 (hex "5ede3f81cc1533d3b535f12e8d2f054a31d924ae2d5cac5809033d80b9bbf6ce5d975098e329a8fe5096eef3a5971084b9e3090278b5b6cc5d55e2de18ee0f73bb150b4ed9b446796c58789d87141638095c9c45e3a8b13bafbb9f609fcebad605109aeff8314d98dde8e9f7d8a816895f038a5e8a5c7d36c5eb93a80344d993a8d0ab7db0f1bea8dbc29ffcdea8540edb2c02e5afca")
    (hex "33687a225d9be9eccad8f3887cba83ec") 3 100%nat
  = hex "b7cfea8c69470f37b1e60ded0152f110036778a15fd7f258c72079730b626c620ecd30478b0dbe4594d2c23326e9479c9e70165390ba33f2c2ea633d6c2465b285147046781b4f6bb1b5d076c600dd426d928b29748ec205411968b5dc94f73694afccae".
Proof. rewrite pbkdf2_sha384_mid. vm_compute. reflexivity. Qed.

Example pbkdf2_sha384_gen_p64_s0_c2_dk20 :
  pbkdf2_sha384 (hex "64c633ebea90fe2102e79725a6ac1e96396838f3b8229a5657897412c7c32f36cf4e3af8f4cccc8b57ade1eb170dd48fc83b552bd2acb1d1d775902c696bb7b1")
    ([]) 2 20%nat
  = hex "dc480b4f7ea9a90f754161d95f21e051334ec346".
Proof. rewrite pbkdf2_sha384_mid. vm_compute. reflexivity. Qed.

Example pbkdf2_sha384_gen_p5_s8_c1_dk0 :
  pbkdf2_sha384 (hex "6aaf265509")
    (hex "3e3961f69992808a") 1 0%nat
  = hex "".
Proof. rewrite pbkdf2_sha384_mid. vm_compute. reflexivity. Qed.

Example pbkdf2_sha384_gen_p5_s8_c0_dk24 :
  pbkdf2_sha384 (hex "6f971abf27")
    (hex "44215460b80e4bd9") 0 24%nat
  = hex "b01b037ca30c1b4bf79aaefbf196d5c2ae5675b1db5a031f".
Proof. rewrite pbkdf2_sha384_mid. vm_compute. reflexivity. Qed.

Example pbkdf2_sha384_gen_p129_s130_c5_dk48 :
  pbkdf2_sha384 (hex "757f0d294603610ee8fb8b0bf4236879521674c35b74634e3f1918c9f2dad96e2775f71927b339316df1bad26f721eb1f5413ba6de939fdf48d59b175ae2ac694a0d70864e0684737fadf711006a2f19dca96343686e15cb2e442f909de79b6f0e728ca6d5f2d259689cd78aeb1b3c138aa3228783c899f2cd3ecaedb103c77cc9")
    (hex "490948cad6891628fd9e8d64e3aee61b060fa90569002a7edae16cd4f993c875213a125968d50a233f6445f06f7ff8c381ac3b05d1d3b78ecc8ada242035f671e61df2d40209709346f4874a11e87fac7b2927e44621b82e21cd557bf88ea13764a2ff7d67b16c5a152109e0d52ccb364fdee3dd3c83d0dbac2835817e2bdc01070b") 5 48%nat
  = hex "6eca085d864a5aeae72d171e50ff843def2a96859372f19415a2dc69f64259795ab440b946fe1633ea9ecde9f3163510".
Proof. rewrite pbkdf2_sha384_mid. vm_compute. reflexivity. Qed.

