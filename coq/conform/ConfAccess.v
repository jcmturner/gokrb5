(* Conformance obligation over gen/Access.v (the access model read off /repo's source on every run). *)
From Coq Require Import String List.
Import ListNotations.
From Gokrb5.model Require Import LockModel.
From Gokrb5.gen Require Import Access.
Open Scope string_scope.

(* the fields with a known unsynchronised write (known findings of C11, see known_findings.txt) *)
Definition known_racy_fields : list string :=
  ["client.Client.Credentials"].

(* every other pair of conflicting accesses in client, config and service is ordered by a common lock *)
Theorem generated_access_model_race_free :
  race_free_except known_racy_fields gen_accesses = true.
Proof. vm_compute. reflexivity. Qed.

(* and the exceptions are really needed: the list is not stale *)
Theorem known_racy_fields_are_racy :
  racy_fields gen_accesses = known_racy_fields.
Proof. vm_compute. reflexivity. Qed.
